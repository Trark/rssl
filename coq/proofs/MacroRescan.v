(* MacroRescan.v — uses whose replacement list or argument is itself scanned for macros: a replacement list that
   names another object-like macro, itself, a macro that names it back, or that invokes a function-like macro; an
   argument that is a macro name (apply_single_macro expands arguments first); a replacement list with `##`.  Each is a
   derivation in MacroExp.Exp.  Generic in the paste function and the rest of the table. *)
From Coq Require Import List Bool String Arith Lia.
From RV Require Import Macro MacroParts MacroSubst MacroScan MacroExp.
Import ListNotations.
Local Open Scope list_scope.

Section Rescan.
Variable paste : mtok -> mtok -> option mtok.
Variable defs : list macro.
Notation plain := (plain defs).
Notation simple := (simple defs).
Notation dis0 := (map (fun _ : macro => false) defs).

(* `#define A preA B postA` / `#define B bodyB`: a use of A is preA bodyB postA *)
Theorem object_chain_is_replaced ia a ib b pre post preA postA :
  nth_error defs ia = Some a -> m_fn a = false ->
  nth_error defs ib = Some b -> m_fn b = false ->
  m_body a = preA ++ MId (m_name b) :: postA ->
  String.eqb (m_name a) (m_name b) = false ->
  (forall j m', j < ia -> nth_error defs j = Some m' -> String.eqb (m_name a) (m_name m') = false) ->
  (forall j m', j < ib -> nth_error defs j = Some m' -> String.eqb (m_name b) (m_name m') = false) ->
  plain pre -> plain post -> plain preA -> plain postA -> plain (m_body b) ->
  apply_macros paste defs (pre ++ MId (m_name a) :: post) = XOk (pre ++ (preA ++ m_body b ++ postA) ++ post).
Proof.
  intros Ha Hfa Hb Hfb Hbody Hab Hfirsta Hfirstb Hpre Hpost HpreA HpostA Hbb.
  pose proof (index_neq defs _ _ _ _ Ha Hb Hab) as Hne.
  apply Exp_apply, (Exp_obj_plain paste defs _ pre ia a post (preA ++ m_body b ++ postA)); try assumption;
    [split; assumption | apply nth_all_false | | |].
  - (* noarg (m_body a) *)
    rewrite Hbody. apply (among_noarg defs [m_name b]), among_mid; [left; reflexivity | |]; assumption.
  - (* the rescan of a's list *)
    rewrite Hbody. apply (Exp_obj_plain paste defs _ preA ib b postA (m_body b)); try assumption;
      [split; assumption | | apply (plain_noarg defs), Hbb | apply Exp_plain, Hbb].
    (* b is not disabled *)
    rewrite nth_set_other by exact Hne. apply nth_all_false.
  - (* its result is plain *)
    repeat apply plain_app; assumption.
Qed.

(* a self-referential object-like macro: `#define a pre a post` / `a` gives `pre a post`; the inner name is neither
   expanded during the rescan (the macro is disabled there) nor afterwards (it lies left of the resume point) *)
Theorem self_reference_stays mi m pre post preA postA :
  nth_error defs mi = Some m -> m_fn m = false ->
  (forall j m', j <> mi -> nth_error defs j = Some m' -> String.eqb (m_name m) (m_name m') = false) ->
  m_body m = preA ++ MId (m_name m) :: postA ->
  plain pre -> plain post -> plain preA -> plain postA ->
  apply_macros paste defs (pre ++ MId (m_name m) :: post) = XOk (pre ++ m_body m ++ post).
Proof.
  intros Hn Hf Huniq Hbody Hpre Hpost HpreA HpostA.
  assert (Ham : among defs [m_name m] (m_body m)) by (rewrite Hbody; apply among_mid; [left; reflexivity | |]; assumption).
  assert (Hmi : mi < List.length dis0) by (rewrite map_length; apply nth_error_Some; congruence).
  apply Exp_apply.
  apply (Exp_obj_noarg paste defs dis0 pre mi m post 0 0 None (m_body m)); try assumption; try lia.
  - (* first_named mi m *) split; [exact Hn | intros j m' Hj; apply Huniq; lia].
  - (* m is not disabled *) apply nth_all_false.
  - (* noarg (m_body m) *) apply (among_noarg defs _ _ Ham).
  - (* the rescan of m's list, m disabled *)
    apply (Exp_stays_disabled paste defs _ mi m); try assumption. apply nth_set_same, Hmi.
  - (* back in the outer list *)
    apply (Exp_stays paste defs _ mi m); try assumption. right; split; [exact Hf | lia].
Qed.

(* mutually referential object-like macros: `#define A preA B postA` / `#define B preB A postB`; a use of A gives
   preA preB A postB postA: B is replaced on the rescan of A's list, the A inside B's list stays *)
Theorem mutual_reference ia a ib b pre post preA postA preB postB :
  nth_error defs ia = Some a -> m_fn a = false ->
  nth_error defs ib = Some b -> m_fn b = false ->
  m_body a = preA ++ MId (m_name b) :: postA ->
  m_body b = preB ++ MId (m_name a) :: postB ->
  String.eqb (m_name a) (m_name b) = false ->
  (forall j m', j <> ia -> nth_error defs j = Some m' -> String.eqb (m_name a) (m_name m') = false) ->
  (forall j m', j < ib -> nth_error defs j = Some m' -> String.eqb (m_name b) (m_name m') = false) ->
  plain pre -> plain post -> plain preA -> plain postA -> plain preB -> plain postB ->
  apply_macros paste defs (pre ++ MId (m_name a) :: post) =
  XOk (pre ++ (preA ++ (preB ++ MId (m_name a) :: postB) ++ postA) ++ post).
Proof.
  intros Ha Hfa Hb Hfb Hba Hbb Hab Huniq Hfirstb Hpre Hpost HpreA HpostA HpreB HpostB.
  pose proof (index_neq defs _ _ _ _ Ha Hb Hab) as Hne.
  assert (Hia : ia < List.length dis0) by (rewrite map_length; apply nth_error_Some; congruence).
  assert (HamB : among defs [m_name a] (m_body b)) by (rewrite Hbb; apply among_mid; [left; reflexivity | |]; assumption).
  assert (HamA : among defs [m_name b] (m_body a)) by (rewrite Hba; apply among_mid; [left; reflexivity | |]; assumption).
  rewrite <- Hbb. apply Exp_apply.
  apply (Exp_obj_noarg paste defs dis0 pre ia a post 0 0 None (preA ++ m_body b ++ postA)); try assumption; try lia.
  - split; [exact Ha | intros j m' Hj; apply Huniq; lia].
  - apply nth_all_false.
  - apply (among_noarg defs _ _ HamA).
  - (* the rescan of A's list, A disabled: B is replaced, and the A in B's list stays both times *)
    rewrite Hba.
    apply (Exp_obj_noarg paste defs _ preA ib b postA 0 0 None (m_body b)); try assumption; try lia.
    + split; assumption.
    + rewrite nth_set_other by exact Hne. apply nth_all_false.
    + apply (among_noarg defs _ _ HamB).
    + apply (Exp_stays_disabled paste defs _ ia a); try assumption.
      rewrite nth_set_other by (intros E; apply Hne; symmetry; exact E). apply nth_set_same, Hia.
    + apply (Exp_stays paste defs _ ia a); try assumption. left. apply nth_set_same, Hia.
  - (* back in the outer list, the A of B's list lies left of the point where the scan resumes *)
    apply (Exp_stays paste defs _ ia a); try assumption; [|right; split; [assumption | lia]].
    apply among_app; [apply plain_among, HpreA | apply among_app; [exact HamB | apply plain_among, HpostA]].
Qed.

(* f(K): `#define f(p) body` with a body of plain tokens and parameter references, `#define K bodyK` with a plain bodyK *)
Theorem argument_is_expanded_first fi f ki k pre post :
  nth_error defs fi = Some f -> m_fn f = true -> m_params f = 1 ->
  nth_error defs ki = Some k -> m_fn k = false ->
  (forall j m', j < fi -> nth_error defs j = Some m' -> String.eqb (m_name f) (m_name m') = false) ->
  (forall j m', j < ki -> nth_error defs j = Some m' -> String.eqb (m_name k) (m_name m') = false) ->
  forallb (bodyb defs) (m_body f) = true -> plain (m_body k) ->
  plain pre -> plain post ->
  apply_macros paste defs (pre ++ MId (m_name f) :: MLP :: MId (m_name k) :: MRP :: post) =
  XOk (pre ++ subst (m_body f) [m_body k] ++ post).
Proof.
  intros Hf Hff Hp Hk Hfk Hfirstf Hfirstk Hbody Hbk Hpre Hpost.
  assert (Hsub : plain (subst (m_body f) [m_body k])) by (apply subst_is_plain; [exact Hbody | repeat constructor; exact Hbk]).
  apply Exp_apply.
  apply (Exp_fn paste defs dis0 pre fi f [[MId (m_name k)]] [m_body k] post 0 0 None (subst (m_body f) [m_body k]) _
           (conj Hf Hfirstf) Hff (nth_all_false defs fi)); try lia.
  - discriminate.
  - rewrite Hp. reflexivity.
  - constructor; [reflexivity | constructor].
  - exact Hpre.
  - (* the argument K, scanned on its own, gives K's replacement list *)
    constructor; [|constructor]. change (trim [MId (m_name k)]) with ([] ++ MId (m_name k) :: []).
    rewrite <- (app_nil_r (m_body k)).
    apply (Exp_obj_plain paste defs dis0 [] ki k [] (m_body k) (conj Hk Hfirstk) Hfk (nth_all_false defs ki));
      try assumption; try reflexivity; [apply (plain_noarg defs), Hbk | apply Exp_plain, Hbk].
  - apply Exp_plain, Hsub.
  - apply Exp_plain. repeat apply plain_app; assumption.
Qed.

(* a replacement list that invokes a function-like macro: `#define L preL f(args) postL` with
   `#define f(params) body`; a use of L gives preL body[args/params] postL *)
Theorem replacement_invokes_function il l fi f pre post preL args postL :
  nth_error defs il = Some l -> m_fn l = false ->
  nth_error defs fi = Some f -> m_fn f = true ->
  m_body l = preL ++ MId (m_name f) :: MLP :: commas args ++ MRP :: postL ->
  String.eqb (m_name l) (m_name f) = false ->
  (forall j m', j < il -> nth_error defs j = Some m' -> String.eqb (m_name l) (m_name m') = false) ->
  (forall j m', j < fi -> nth_error defs j = Some m' -> String.eqb (m_name f) (m_name m') = false) ->
  args <> [] -> List.length args = m_params f -> Forall simple args ->
  forallb (bodyb defs) (m_body f) = true ->
  plain pre -> plain post -> plain preL -> plain postL ->
  apply_macros paste defs (pre ++ MId (m_name l) :: post) =
  XOk (pre ++ (preL ++ subst (m_body f) (map trim args) ++ postL) ++ post).
Proof.
  intros Hl Hfl Hf Hff Hbody Hlf Hfirstl Hfirstf Hne Hlen Hs Hbf Hpre Hpost HpreL HpostL.
  pose proof (index_neq defs _ _ _ _ Hl Hf Hlf) as Hneq.
  pose proof (simple_subst_plain defs f args Hbf Hs) as Hsub.
  apply Exp_apply, (Exp_obj_plain paste defs dis0 pre il l post (preL ++ subst (m_body f) (map trim args) ++ postL));
    try assumption; [split; assumption | apply nth_all_false | | |].
  - (* noarg (m_body l) *)
    rewrite Hbody. apply (among_noarg defs [m_name f]), among_mid; [left; reflexivity | exact HpreL|].
    change (plain ([MLP] ++ commas args ++ [MRP] ++ postL)). repeat apply plain_app; try assumption; try reflexivity.
    apply plain_commas. apply (Forall_impl _ (simple_plain defs) Hs).
  - (* the rescan of l's list *)
    rewrite Hbody. apply (Exp_fn_plain paste defs _ preL fi f args postL); try assumption;
      [split; assumption | | apply Exp_plain, Hsub].
    (* f is not disabled *)
    rewrite nth_set_other by exact Hneq. apply nth_all_false.
  - (* its result is plain *)
    repeat apply plain_app; assumption.
Qed.

Lemma trim_single a : is_ws a = false -> trim [a] = [a].
Proof.
  intros H. unfold trim, trim_end. cbn [trim_start].
  assert (Hi : is_ws_inline a = false) by (destruct a; try reflexivity; discriminate H).
  rewrite Hi. cbn [rev app trim_start]. rewrite Hi. reflexivity.
Qed.

(* the rescan of `p ## q` with a for p and b for q: one iteration pastes, the next finds plain text *)
Lemma Exp_paste_pair dis a b t : plain [a] -> is_ws a = false -> is_ws b = false -> paste a b = Some t -> plain [t] ->
  Exp paste defs dis [a; MWs; MConcat; MWs; b] 0 0 None [t].
Proof.
  intros Ha Hwa Hwb Hpaste Ht [|d] [|[|n]] _ ? Hlen; cbn [List.length] in Hlen; try lia.
  rewrite expand_eq. unfold loop_step. cbn [List.length Nat.leb]. unfold find. cbn [firstn skipn rev].
  change [a; MWs; MConcat; MWs; b] with ([a; MWs] ++ [MConcat; MWs; b]).
  rewrite (find_from_pass defs dis [] 0 None [a; MWs] [MConcat; MWs; b] [] 0);
    [|apply plain_among, (plain_app defs [a] [MWs] Ha eq_refl) | intros x after j []].
  cbn [rev app List.length Nat.add find_from Nat.ltb Nat.leb first_non_ws is_ws].
  rewrite Hwa, Hwb. cbn [Nat.sub Nat.add nth_error]. rewrite Hpaste. cbn [firstn skipn app].
  apply expand_plain, Ht.
Qed.

(* `##` pastes its neighbours into one token: `name(a, b)` for `#define name(p,q) p ## q` with two single-token
   arguments yields the one token the paste function makes of them *)
Theorem paste_macro_pastes mi m pre a b t post :
  nth_error defs mi = Some m -> m_fn m = true -> m_params m = 2 ->
  m_body m = [MArg 0; MWs; MConcat; MWs; MArg 1] ->
  (forall j m', j < mi -> nth_error defs j = Some m' -> String.eqb (m_name m) (m_name m') = false) ->
  simple [a] -> simple [b] -> is_ws a = false -> is_ws b = false ->
  paste a b = Some t -> plain [t] ->
  plain pre -> plain post ->
  apply_macros paste defs (pre ++ MId (m_name m) :: MLP :: a :: MComma :: b :: MRP :: post) = XOk (pre ++ t :: post).
Proof.
  intros Hn Hf Hp Hb Hfirst Ha Hbb Hwa Hwb Hpaste Ht Hpre Hpost.
  change (a :: MComma :: b :: MRP :: post) with (commas [[a]; [b]] ++ MRP :: post).
  change (t :: post) with ([t] ++ post).
  apply Exp_apply, (Exp_fn_plain paste defs _ pre mi m [[a]; [b]] post [t] (conj Hn Hfirst) Hf (nth_all_false defs mi));
    try assumption.
  - discriminate.
  - rewrite Hp. reflexivity.
  - constructor; [exact Ha | constructor; [exact Hbb | constructor]].
  - rewrite Hb. cbn [map subst nth app]. rewrite (trim_single a Hwa), (trim_single b Hwb). cbn [app].
    apply Exp_paste_pair; try assumption. apply Ha.
Qed.

End Rescan.
