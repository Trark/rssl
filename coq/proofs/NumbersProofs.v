(* NumbersProofs.v — integer literals denote exactly their written value or are rejected;
   the core of the reference float conversion, dec2f64_core, rounds correctly (Flocq). *)
From Coq Require Import List ZArith NArith Bool String Ascii Lia Reals.
From Coq Require Import Floats.SpecFloat.
From Flocq Require Import Core IEEE754.BinarySingleNaN.
From RV Require Import Lexer Numbers.
Import ListNotations.

(* the mathematical value of a digit string read most significant digit first (stops at the first non-digit) *)
Fixpoint written_value (base : N) (dv : ascii -> option N) (s : string) (acc : N) : N :=
  match s with
  | EmptyString => acc
  | String c r => match dv c with Some d => written_value base dv r (acc * base + d)%N | None => acc end
  end.

Lemma written_value_ge base dv s acc : (1 <= base)%N -> (acc <= written_value base dv s acc)%N.
Proof.
  intros Hb. revert acc; induction s as [|c r IH]; intros acc; cbn [written_value]; [lia|].
  destruct (dv c) as [d|]; [|lia]. specialize (IH (acc * base + d)%N). nia.
Qed.

Theorem accum_exact base dv s acc : (1 <= base)%N -> (acc < two64)%N ->
  accum base dv s acc =
  if (written_value base dv s acc <? two64)%N then Some (written_value base dv s acc) else None.
Proof.
  intros Hb. revert acc; induction s as [|c r IH]; intros acc Ha; cbn [accum written_value].
  - apply N.ltb_lt in Ha. rewrite Ha. reflexivity.
  - destruct (dv c) as [d|]; [|apply N.ltb_lt in Ha; rewrite Ha; reflexivity].
    destruct (N.ltb_spec (acc * base + d) two64) as [H|H]; [apply IH; exact H|].
    assert (G := written_value_ge base dv r (acc * base + d)%N Hb).
    destruct (N.ltb_spec (written_value base dv r (acc * base + d)) two64); [lia | reflexivity].
Qed.

Local Open Scope R_scope.

Notation fexp64 := (SpecFloat.fexp 53 1024).
Notation round64 := (round radix2 fexp64 (round_mode mode_NE)).

Lemma F2R_int z : F2R (Float radix2 z 0) = IZR z.
Proof. unfold F2R. cbn [Fnum Fexp bpow]. apply Rmult_1_r. Qed.

(* non-negative decimal exponent: the nearest double to p * 10^e, or +infinity when that overflows *)
Theorem dec2f64_core_nearest_pos (p : positive) (e : Z) : (0 <= e)%Z ->
  let x := IZR (Zpos p * 10 ^ e) in
  if Rlt_bool (Rabs (round64 x)) (bpow radix2 1024)
  then SF2R radix2 (dec2f64_core (Npos p) e) = round64 x
  else dec2f64_core (Npos p) e = S754_infinity false.
Proof.
  intros He x. unfold dec2f64_core. apply Z.leb_le in He. rewrite He.
  assert (H := binary_normalize_correct 53 1024 eq_refl eq_refl mode_NE (Zpos p * 10 ^ e) 0 false).
  cbn zeta in H. rewrite F2R_int in H. fold x in H.
  destruct (Rlt_bool (Rabs (round64 x)) (bpow radix2 1024)).
  - destruct H as (H & _ & _). rewrite <- H. apply SF2R_B2SF.
  - rewrite H. unfold binary_overflow, overflow_to_inf. cbn.
    replace (Rlt_bool x 0) with false; [reflexivity|].
    symmetry. apply Rlt_bool_false. unfold x. apply IZR_le.
    apply Z.leb_le in He. assert (0 < 10 ^ e)%Z by (apply Z.pow_pos_nonneg; lia). nia.
Qed.

(* negative decimal exponent: the nearest double to p / 10^(-e) *)
Theorem dec2f64_core_nearest_neg (p : positive) (e : Z) : (e < 0)%Z ->
  let x := IZR (Zpos p) / IZR (10 ^ (- e)) in
  if Rlt_bool (Rabs (round64 x)) (bpow radix2 1024)
  then SF2R radix2 (dec2f64_core (Npos p) e) = round64 x
  else dec2f64_core (Npos p) e = S754_infinity false.
Proof.
  intros He x. unfold dec2f64_core.
  destruct (Z.leb_spec 0 e) as [H0|_]; [lia|].
  assert (Hp : exists q, (10 ^ (- e))%Z = Zpos q).
  { assert (0 < 10 ^ (- e))%Z by (apply Z.pow_pos_nonneg; lia). destruct (10 ^ (- e))%Z as [|q|q]; try lia. eauto. }
  destruct Hp as [q Hq]. unfold x. clear x. rewrite Hq in *.
  assert (H := Bdiv_correct_aux 53 1024 eq_refl eq_refl mode_NE false p 0 false q 0).
  cbn zeta in H. cbn [cond_Zopp xorb] in H. rewrite !F2R_int in H.
  destruct (SFdiv_core_binary 53 1024 (Z.pos p) 0 (Z.pos q) 0) as [[mz ez] lz].
  destruct H as [_ H].
  destruct (Rlt_bool (Rabs (round64 (IZR (Z.pos p) / IZR (Z.pos q)))) (bpow radix2 1024)).
  - destruct H as (H & _). exact H.
  - rewrite H. reflexivity.
Qed.
