(* PermProofs.v — two ways in which the order of a walk over a hash container is lost.  Sorting: sorted permutations of
   the same elements are equal when the order is total and elements that compare equal are equal.  The usage fixpoint:
   whatever the order of the keys, every set ends as the symbols reachable through the initial sets; `Inv` keeps each
   set between its initial value and reachability, and a pass that changes nothing leaves every visited set closed. *)
From Coq Require Import List NArith Bool Lia Arith Permutation Sorting.Sorted.
From RV Require Import Perm ListFacts.
Import ListNotations.

Section SortProofs.
Variable A : Type.
Variable leb : A -> A -> bool.
Hypothesis leb_total : forall x y, leb x y = true \/ leb y x = true.
Hypothesis leb_trans : forall x y z, leb x y = true -> leb y z = true -> leb x z = true.

Definition le_by (x y : A) : Prop := leb x y = true.

Lemma insert_perm x l : Permutation (insert leb x l) (x :: l).
Proof.
  induction l as [|y r IH]; cbn [insert]; [apply Permutation_refl|].
  destruct (leb x y); [apply Permutation_refl|].
  etransitivity; [apply perm_skip, IH | apply perm_swap].
Qed.

Lemma isort_perm l : Permutation (isort leb l) l.
Proof.
  induction l as [|x r IH]; cbn [isort fold_right]; [constructor|].
  etransitivity; [apply insert_perm | apply perm_skip, IH].
Qed.

Lemma insert_sorted x l : StronglySorted le_by l -> StronglySorted le_by (insert leb x l).
Proof.
  induction 1 as [|y r Hs IH Hall]; cbn [insert]; [repeat constructor|].
  destruct (leb x y) eqn:E.
  - constructor; [constructor; assumption|]. constructor; [exact E|].
    rewrite Forall_forall in *. intros z Hz. apply (leb_trans x y z E). apply Hall, Hz.
  - constructor; [exact IH|].
    assert (Hyx : leb y x = true) by (destruct (leb_total x y); congruence).
    rewrite Forall_forall in *. intros z Hz.
    apply (Permutation_in _ (insert_perm x r)) in Hz. destruct Hz as [<-|Hz]; [exact Hyx | apply Hall, Hz].
Qed.

Lemma isort_sorted l : StronglySorted le_by (isort leb l).
Proof. induction l as [|x r IH]; cbn [isort fold_right]; [constructor | apply insert_sorted, IH]. Qed.

Lemma sorted_perm_eq : forall l l',
  (forall x y, In x l -> In y l -> leb x y = true -> leb y x = true -> x = y) ->
  StronglySorted le_by l -> StronglySorted le_by l' -> Permutation l l' -> l = l'.
Proof.
  induction l as [|a r IH]; intros l' Hanti Hs Hs' Hp.
  - apply Permutation_nil in Hp. subst. reflexivity.
  - destruct l' as [|b r']; [apply Permutation_sym, Permutation_nil in Hp; discriminate|].
    inversion Hs as [|? ? Hsr Har]; subst. inversion Hs' as [|? ? Hsr' Hbr']; subst.
    assert (Hab : a = b).
    { assert (Hb : In b (a :: r)) by (apply (Permutation_in _ (Permutation_sym Hp)); left; reflexivity).
      assert (Ha : In a (b :: r')) by (apply (Permutation_in _ Hp); left; reflexivity).
      destruct Hb as [->|Hb]; [reflexivity|]. destruct Ha as [->|Ha]; [reflexivity|].
      rewrite Forall_forall in Har, Hbr'.
      apply Hanti; [left; reflexivity | right; exact Hb | apply Har, Hb | apply Hbr', Ha]. }
    subst b. f_equal. apply IH; try assumption.
    + intros x y Hx Hy. apply Hanti; right; assumption.
    + apply (Permutation_cons_inv Hp).
Qed.

(* Vec::from_iter(hash container) followed by sort: the order of the walk does not matter *)
Theorem sort_order_irrelevant l l' :
  (forall x y, In x l -> In y l -> leb x y = true -> leb y x = true -> x = y) ->
  Permutation l l' -> isort leb l = isort leb l'.
Proof.
  intros Hanti Hp. apply sorted_perm_eq; try apply isort_sorted.
  - intros x y Hx Hy. apply Hanti; apply (Permutation_in _ (isort_perm l)); assumption.
  - etransitivity; [apply isort_perm|]. etransitivity; [exact Hp|]. apply Permutation_sym, isort_perm.
Qed.

End SortProofs.

(* the sorts that the model writes out for one element type (sort_entries, sort_blocks) are isort at their order *)
Lemma fold_insert_isort {A} (leb : A -> A -> bool) (ins : A -> list A -> list A) :
  (forall x m, ins x m = insert leb x m) -> forall l, fold_right ins [] l = isort leb l.
Proof.
  intros I l. unfold isort. induction l as [|x l IH]; cbn [fold_right]; [reflexivity|]. rewrite IH. apply I.
Qed.

(* sort_by a key (sort_by_key, sort_by(|l, r| cmp(l.0, r.0))): when the keys are pairwise distinct, a total order on
   the keys is enough *)
Theorem sort_by_order_irrelevant {A K} (key : A -> K) (leb : K -> K -> bool) :
  (forall a b, leb a b = true \/ leb b a = true) ->
  (forall a b c, leb a b = true -> leb b c = true -> leb a c = true) ->
  (forall a b, leb a b = true -> leb b a = true -> a = b) ->
  forall l l', NoDup (map key l) -> Permutation l l' ->
  isort (fun x y => leb (key x) (key y)) l = isort (fun x y => leb (key x) (key y)) l'.
Proof.
  intros Htot Htr Hanti l l' Hnd Hp. apply sort_order_irrelevant; [auto | eauto | | exact Hp].
  intros x y Hx Hy H1 H2. apply (map_injective_on key l); auto.
Qed.

Section SortBy.
Variable A : Type.
Variable key : A -> N.

Definition key_leb (x y : A) : bool := (key x <=? key y)%N.

End SortBy.

Lemma N_leb_total x y : N.leb x y = true \/ N.leb y x = true.
Proof. destruct (N.leb_spec x y); [left; reflexivity | right; apply N.leb_le; lia]. Qed.
Lemma N_leb_trans x y z : N.leb x y = true -> N.leb y z = true -> N.leb x z = true.
Proof. rewrite !N.leb_le. lia. Qed.

Theorem sort_by_key_order_irrelevant A (key : A -> N) l l' :
  NoDup (map key l) -> Permutation l l' -> isort (key_leb A key) l = isort (key_leb A key) l'.
Proof.
  apply (sort_by_order_irrelevant key N.leb N_leb_total N_leb_trans). intros a b. rewrite !N.leb_le. lia.
Qed.

(* the derived order of (set, size), spelt out *)
Lemma pair_leb_iff a b c d : pair_leb (a, b) (c, d) = true <-> (a < c \/ (a = c /\ b <= d))%N.
Proof. unfold pair_leb. cbn [fst snd]. rewrite orb_true_iff, andb_true_iff, N.ltb_lt, N.eqb_eq, N.leb_le. reflexivity. Qed.

Theorem pair_sort_order_irrelevant (l l' : list (N * N)) : Permutation l l' -> isort pair_leb l = isort pair_leb l'.
Proof.
  apply sort_order_irrelevant.
  - intros [a b] [c d]. rewrite !pair_leb_iff. lia.
  - intros [a b] [c d] [e f]. rewrite !pair_leb_iff. lia.
  - intros [a b] [c d] _ _. rewrite !pair_leb_iff. intros H1 H2. f_equal; lia.
Qed.

Definition sub (a b : list key) : Prop := forall x, In x a -> In x b.
Definition seteq (a b : list key) : Prop := sub a b /\ sub b a.

Lemma mem_in x l : mem x l = true <-> In x l.
Proof. apply (existsb_eqb_In N.eqb N.eqb_eq). Qed.

Lemma extend_in add : forall cur x, In x (extend cur add) <-> In x cur \/ In x add.
Proof.
  induction add as [|a r IH]; intros cur x; cbn [extend]; [cbn; tauto|].
  destruct (mem a cur) eqn:E.
  - rewrite IH. apply mem_in in E. cbn [In]. split; [tauto|]. intros [H|[<-|H]]; auto.
  - rewrite IH, in_app_iff. cbn [In]. tauto.
Qed.

Lemma extend_len add : forall cur, List.length cur <= List.length (extend cur add).
Proof.
  induction add as [|a r IH]; intros cur; cbn [extend]; [lia|].
  destruct (mem a cur); [apply IH|]. etransitivity; [|apply IH]. rewrite app_length. cbn. lia.
Qed.

Lemma extend_same add : forall cur, List.length (extend cur add) = List.length cur -> sub add cur.
Proof.
  induction add as [|a r IH]; intros cur H x Hx; [destruct Hx|]. cbn [extend] in H.
  destruct (mem a cur) eqn:E.
  - destruct Hx as [<-|Hx]; [apply mem_in, E | apply (IH cur H), Hx].
  - exfalso. pose proof (extend_len r (cur ++ [a])) as L. rewrite app_length in L. cbn in L. lia.
Qed.

Lemma get_set s k v k' :
  get (set s k v) k' = if N.eqb k' k && mem k (map fst s) then v else get s k'.
Proof.
  induction s as [|[a w] r IH]; cbn [set get map fst mem existsb].
  - rewrite andb_false_r. reflexivity.
  - destruct (N.eqb k a) eqn:Eka.
    + apply N.eqb_eq in Eka. subst a. cbn [get]. destruct (N.eqb k' k) eqn:E; cbn; reflexivity.
    + cbn [get]. destruct (N.eqb k' a) eqn:Ek'a.
      * apply N.eqb_eq in Ek'a. subst a. destruct (N.eqb k' k) eqn:E; [|reflexivity].
        apply N.eqb_eq in E. subst. rewrite N.eqb_refl in Eka. discriminate.
      * rewrite IH. unfold mem. reflexivity.
Qed.

Lemma get_nokey s k : mem k (map fst s) = false -> get s k = [].
Proof.
  induction s as [|[a w] r IH]; cbn [map fst mem existsb get]; [reflexivity|].
  intros H. apply orb_false_iff in H. destruct H as [H1 H2]. rewrite H1. apply IH. exact H2.
Qed.

Lemma fold_extend_in s l : forall cur x,
  In x (fold_left (fun acc o => extend acc (get s o)) l cur) <-> In x cur \/ exists o, In o l /\ In x (get s o).
Proof.
  induction l as [|a r IH]; intros cur x; cbn [fold_left].
  - split; [auto|]. intros [H|(o & [] & _)]. exact H.
  - rewrite IH, extend_in. split.
    + intros [[H|H]|(o & Ho & Hx)]; [left; exact H | right; exists a; split; [left; reflexivity | exact H] | right; exists o; split; [right; exact Ho | exact Hx]].
    + intros [H|(o & [<-|Ho] & Hx)]; [left; left; exact H | left; right; exact Hx | right; exists o; split; assumption].
Qed.

Lemma fold_extend_len s l : forall cur, List.length cur <= List.length (fold_left (fun acc o => extend acc (get s o)) l cur).
Proof.
  induction l as [|a r IH]; intros cur; cbn [fold_left]; [lia|]. etransitivity; [apply (extend_len (get s a))|apply IH].
Qed.

Lemma fold_extend_same s l : forall cur,
  List.length (fold_left (fun acc o => extend acc (get s o)) l cur) = List.length cur ->
  forall o, In o l -> sub (get s o) cur.
Proof.
  induction l as [|a r IH]; intros cur H o Ho; [destruct Ho|]. cbn [fold_left] in H.
  pose proof (extend_len (get s a) cur) as L1. pose proof (fold_extend_len s r (extend cur (get s a))) as L2.
  assert (E1 : List.length (extend cur (get s a)) = List.length cur) by lia.
  destruct Ho as [<-|Ho]; [apply extend_same, E1|].
  intros x Hx. pose proof (IH (extend cur (get s a)) ltac:(lia) o Ho x Hx) as Hin.
  apply extend_in in Hin. destruct Hin as [Hin|Hin]; [exact Hin | apply (extend_same _ _ E1), Hin].
Qed.

Section Fix.
Variable s0 : state.

Inductive reach (k : key) : key -> Prop :=
| reach_direct x : In x (get s0 k) -> reach k x
| reach_step o x : reach k o -> In x (get s0 o) -> reach k x.

Lemma reach_trans k o x : reach k o -> reach o x -> reach k x.
Proof. intros H. induction 1; eapply reach_step; eauto. Qed.

Definition Inv (s : state) : Prop :=
  forall k, sub (get s0 k) (get s k) /\ (forall x, In x (get s k) -> reach k x).

Lemma Inv_init : Inv s0.
Proof. intros k. split; [intros x Hx; exact Hx | intros x Hx; apply reach_direct, Hx]. Qed.

Definition closed_at (s : state) (k : key) : Prop := forall o, In o (get s k) -> sub (get s o) (get s k).

Lemma visit_spec s k s' m : Inv s -> visit s k = (s', m) ->
  Inv s' /\ (m = false -> s' = s /\ closed_at s k).
Proof.
  intros HI Hv. unfold visit in Hv.
  set (cur := get s k) in *. set (new := fold_left _ cur cur) in *.
  destruct (Nat.ltb_spec (List.length cur) (List.length new)) as [Hlt|Hge]; inversion Hv; subst s' m; clear Hv.
  - split; [|discriminate]. intros k'. rewrite get_set.
    destruct (N.eqb k' k && mem k (map fst s)) eqn:E; [|apply HI].
    apply andb_true_iff in E. destruct E as [E _]. apply N.eqb_eq in E. subst k'.
    destruct (HI k) as [H1 H2]. split.
    + intros x Hx. apply fold_extend_in. left. apply H1, Hx.
    + intros x Hx. apply fold_extend_in in Hx. destruct Hx as [Hx|(o & Ho & Hx)]; [apply H2, Hx|].
      (* x is used by o, and o is reachable from k *)
      apply (reach_trans k o); [apply H2, Ho | apply (HI o), Hx].
  - split; [exact HI|]. intros _. split; [reflexivity|].
    pose proof (fold_extend_len s cur cur) as L. fold new in L.
    intros o Ho. apply (fold_extend_same s cur cur ltac:(fold new; lia) o Ho).
Qed.

Lemma pass_spec ks : forall s m s' m', Inv s -> pass ks s m = (s', m') ->
  Inv s' /\ (m' = false -> m = false /\ s' = s /\ forall k, In k ks -> closed_at s k).
Proof.
  induction ks as [|k r IH]; intros s m s' m' HI Hp; cbn [pass] in Hp.
  - inversion Hp; subst. split; [exact HI|]. intros ->. repeat split. intros k [].
  - destruct (visit s k) as [s1 m1] eqn:Hv. destruct (visit_spec s k s1 m1 HI Hv) as [HI1 Hm1].
    destruct (IH _ _ _ _ HI1 Hp) as [HI' Hm']. split; [exact HI'|].
    intros ->. destruct (Hm' eq_refl) as (Hor & -> & Hcl). apply orb_false_iff in Hor. destruct Hor as [-> ->].
    destruct (Hm1 eq_refl) as [-> Hck]. repeat split.
    intros k' [<-|Hk']; [exact Hck | apply Hcl, Hk'].
Qed.

Lemma recurse_spec ks : forall fuel s s', Inv s -> recurse fuel ks s = Some s' ->
  Inv s' /\ forall k, In k ks -> closed_at s' k.
Proof.
  induction fuel as [|f IH]; intros s s' HI H; [discriminate|]. cbn [recurse] in H.
  destruct (pass ks s false) as [s1 m] eqn:Hp. destruct (pass_spec ks s false s1 m HI Hp) as [HI1 Hm].
  destruct m.
  - apply (IH s1 s' HI1 H).
  - inversion H; subst s'. destruct (Hm eq_refl) as (_ & -> & Hcl). split; assumption.
Qed.

Theorem recurse_is_reachability fuel ks s k :
  recurse fuel ks s0 = Some s -> In k ks -> forall x, In x (get s k) <-> reach k x.
Proof.
  intros H Hk x. destruct (recurse_spec ks fuel s0 s Inv_init H) as [HI Hcl]. split.
  - apply (proj2 (HI k)).
  - intros Hr. induction Hr as [x Hx|o x Hr IH Hx].
    + apply (proj1 (HI k)), Hx.
    + apply (Hcl k Hk o IH). apply (proj1 (HI o)), Hx.
Qed.

End Fix.
