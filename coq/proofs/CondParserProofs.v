(* The #if condition parser (model of condition_parser.rs) computes the reference value of every condition tree
   printed with minimal parentheses. *)
From Coq Require Import List NArith Bool String Lia Arith.
From RV Require Import Cond.
Import ListNotations.

Definition opd (j : nat) : list ctok -> option (binop * list ctok) :=
  match j with
  | 1 => op6 | 2 => op7 | 3 => op11 | 4 => op12
  | _ => fun _ => None
  end.

(* the parser for contexts of rank j: Y f 0 = unary/leaf level, Y f 4 = the whole grammar *)
Fixpoint Y (f j : nat) : list ctok -> presult :=
  match j with
  | O => p2 (p12 f)
  | S j' => level (opd (S j')) (Y f j')
  end.

Lemma p12_Y f : p12 (S f) = Y f 4.
Proof. reflexivity. Qed.

Definition trank (t : ctok) : nat :=
  match t with
  | KOr => 4 | KAnd => 3 | KEq | KNe => 2 | KLt | KGt | KLe | KGe => 1
  | _ => 0
  end.
Definition hrank (k : list ctok) : nat := match k with t :: _ => trank t | [] => 0 end.

Lemma opd_some op r : opd (rank op) (optok op :: r) = Some (op, r).
Proof. destruct op; reflexivity. Qed.

Lemma trank_optok op : trank (optok op) = rank op.
Proof. destruct op; reflexivity. Qed.

Lemma opd_none j k : hrank k <> j -> opd j k = None.
Proof.
  intros H. destruct j as [|[|[|[|[|j]]]]]; try reflexivity;
    destruct k as [|[] r]; try reflexivity; destruct (H eq_refl).
Qed.

Lemma p2_not f r : Y f 0 (KNot :: r) = match Y f 0 r with POk v r' => POk (b2n (v =? 0)%N) r' | e => e end.
Proof. reflexivity. Qed.

Lemma leaf_paren f r :
  Y (S f) 0 (KLP :: r) = match Y f 4 r with POk v (KRP :: r') => POk v r' | POk _ _ => PErr | e => e end.
Proof. reflexivity. Qed.

Lemma rights_stop op_fn expr_fn n v k : op_fn k = None -> rights op_fn expr_fn (S n) v k = POk v k.
Proof. intros H. cbn [rights]. rewrite H. reflexivity. Qed.

Lemma rights_step op_fn expr_fn n acc ts op rest v k :
  op_fn ts = Some (op, rest) -> expr_fn rest = POk v k ->
  rights op_fn expr_fn (S n) acc ts = rights op_fn expr_fn n (apply op acc v) k.
Proof. intros Ho He. cbn [rights]. rewrite Ho, He. reflexivity. Qed.

(* k does not start with an operator that binds tighter than rank j *)
Definition ok (j : nat) (k : list ctok) : Prop := hrank k = 0 \/ j <= hrank k.

Lemma ok_weaken j j' k : ok j k -> j' <= j -> ok j' k.
Proof. unfold ok. lia. Qed.

(* an operand of value v has been read in a rank-j context and k follows: the loop of level j takes it to res *)
Definition cont (j f : nat) (v : N) (k : list ctok) (res : presult) : Prop :=
  ok j k /\
  match j with
  | O => res = POk v k
  | S j' => forall n, List.length k < n -> rights (opd j) (Y f j') n v k = res
  end.

Lemma cont_stop j f v k : ok (S j) k -> cont j f v k (POk v k).
Proof.
  intros H. split; [apply (ok_weaken _ _ _ H), Nat.le_succ_diag_r|]. destruct j as [|j']; [reflexivity|].
  intros [|n] Hn; [lia|]. apply rights_stop, opd_none. unfold ok in H. lia.
Qed.

Lemma rank_bounds op : 1 <= rank op <= 4.
Proof. destruct op; split; repeat constructor. Qed.

(* the loop of level rank op takes the operator and a right operand read by the level below *)
Lemma cont_op f op u s v k res :
  Y f (Nat.pred (rank op)) (s ++ k) = POk v k ->
  cont (rank op) f (apply op u v) k res -> cont (rank op) f u (optok op :: s ++ k) res.
Proof.
  intros Hr [_ Hc]. pose proof (opd_some op (s ++ k)) as Ho. pose proof (trank_optok op) as Ht.
  pose proof (rank_bounds op) as Hb. destruct (rank op) as [|p]; [lia|]. cbn [Nat.pred] in Hr. split.
  - right. cbn [hrank]. rewrite Ht. apply le_n.
  - intros [|n] Hn; [lia|]. rewrite (rights_step _ _ _ _ _ _ _ _ _ Ho Hr). apply Hc.
    cbn [List.length] in Hn. rewrite app_length in Hn. lia.
Qed.

(* an operand read by level j is the first operand of level S j *)
Lemma Y_step f j ts v k res : Y f j ts = POk v k -> cont (S j) f v k res -> Y f (S j) ts = res.
Proof. intros H [_ Hc]. cbn [Y]. unfold level. rewrite H. apply Hc, Nat.lt_succ_diag_r. Qed.

(* and is handed upwards unchanged by the levels whose operators k does not start with *)
Lemma Y_up f i ts v k : Y f i ts = POk v k -> forall j, i <= j -> ok (S j) k -> Y f j ts = POk v k.
Proof.
  intros Hi j Hle. induction Hle as [|m Hle IH]; intros Hok; [exact Hi|].
  apply (Y_step f m ts v k); [apply IH, (ok_weaken _ _ _ Hok); lia | apply cont_stop, Hok].
Qed.

(* so what level p makes of s before every continuation, every looser level makes of it too *)
Lemma climb f p s v :
  (forall k res, cont p f v k res -> Y f p (s ++ k) = res) ->
  forall j k res, p <= j -> cont j f v k res -> Y f j (s ++ k) = res.
Proof.
  intros Hp j k res Hle Hc. destruct Hle as [|m Hle]; [apply Hp, Hc|].
  apply (Y_step f m _ v k); [|exact Hc]. destruct Hc as [Hok _].
  apply (Y_up f p); [|exact Hle | exact Hok]. apply Hp, cont_stop, (ok_weaken _ _ _ Hok). lia.
Qed.

Lemma from_atom f s v :
  (forall k, Y f 0 (s ++ k) = POk v k) -> forall j k res, cont j f v k res -> Y f j (s ++ k) = res.
Proof. intros H j k res. apply (climb f 0); [intros k' res' [_ ->]; apply H | apply Nat.le_0_l]. Qed.

(* parenthesis nesting depth of the printed text = fuel needed *)
Fixpoint pd (e : cexpr) : nat :=
  let pdp := fun (j : nat) (x : cexpr) => if Nat.leb (erank x) j then pd x else S (pd x) in
  match e with
  | ENot x => pdp 0 x
  | EBin op l r => Nat.max (pdp (rank op) l) (pdp (Nat.pred (rank op)) r)
  | _ => 0
  end.
Definition pdp (j : nat) (x : cexpr) : nat := if Nat.leb (erank x) j then pd x else S (pd x).

Lemma erank_le4 e : erank e <= 4.
Proof. destruct e; cbn; try lia. apply rank_bounds. Qed.

(* reading e where it is printed bare, and where it is printed as an operand of rank j *)
Definition reads (e : cexpr) : Prop :=
  forall f j k res, erank e <= j -> pd e <= f -> cont j f (ceval e) k res -> Y f j (raw e ++ k) = res.
Definition reads_operand (e : cexpr) : Prop :=
  forall f j k res, pdp j e <= f -> cont j f (ceval e) k res -> Y f j (pr j e ++ k) = res.

Lemma paren_case e : reads e -> reads_operand e.
Proof.
  intros Hraw f j k res Hf Hc. unfold pr, pdp in *.
  destruct (Nat.leb_spec (erank e) j) as [Hle|Hgt]; [apply Hraw; assumption|].
  destruct f as [|g]; [lia|].
  apply (from_atom (S g) (KLP :: raw e ++ [KRP]) (ceval e)); [|exact Hc].
  intros k'. cbn [app]. rewrite <- app_assoc, leaf_paren. cbn [app].
  rewrite (Hraw g 4 (KRP :: k') (POk (ceval e) (KRP :: k'))); [reflexivity | apply erank_le4 | lia |].
  apply cont_stop. left. reflexivity.
Qed.

Theorem parser_inverts_printer e : reads e.
Proof.
  induction e as [n| | |s|x IHx|op l IHl r IHr]; intros f j k res Hj Hf Hc.
  1-4: eapply from_atom; [reflexivity | exact Hc].
  - apply paren_case in IHx. change (pd (ENot x)) with (pdp 0 x) in Hf.
    apply (from_atom f (raw (ENot x)) (ceval (ENot x))); [|exact Hc].
    intros k'. change (raw (ENot x)) with (KNot :: pr 0 x). cbn [app].
    rewrite p2_not, (IHx f 0 k' (POk (ceval x) k') Hf); [reflexivity|]. apply cont_stop. unfold ok. lia.
  - apply paren_case in IHl, IHr. cbn [erank] in Hj.
    change (pd (EBin op l r)) with (Nat.max (pdp (rank op) l) (pdp (Nat.pred (rank op)) r)) in Hf.
    apply (climb f (rank op) (raw (EBin op l r)) (ceval (EBin op l r))); [|exact Hj | exact Hc].
    (* at the operator's own level: the left operand, then one turn of the loop over the right operand *)
    intros k0 res0 Hc0. change (raw (EBin op l r)) with (pr (rank op) l ++ optok op :: pr (Nat.pred (rank op)) r).
    rewrite <- app_assoc. cbn [app]. apply IHl; [lia|]. apply (cont_op f op _ _ (ceval r)); [|exact Hc0].
    apply IHr; [lia|]. apply cont_stop, (ok_weaken _ _ _ (proj1 Hc0)).
    pose proof (rank_bounds op). lia.
Qed.

Lemma pdp_le_length j x : pd x <= List.length (raw x) -> pdp j x <= List.length (pr j x).
Proof.
  intros H. unfold pdp, pr. destruct (Nat.leb (erank x) j); [exact H|].
  cbn [List.length]. rewrite app_length. cbn [List.length]. lia.
Qed.

Lemma pd_le_length e : pd e <= List.length (raw e).
Proof.
  induction e as [n| | |s|x IHx|op l IHl r IHr]; try apply Nat.le_0_l.
  - apply le_S, (pdp_le_length 0 x IHx).
  - change (Nat.max (pdp (rank op) l) (pdp (Nat.pred (rank op)) r) <=
            List.length (pr (rank op) l ++ optok op :: pr (Nat.pred (rank op)) r)).
    rewrite app_length. cbn [List.length].
    pose proof (pdp_le_length (rank op) l IHl). pose proof (pdp_le_length (Nat.pred (rank op)) r IHr). lia.
Qed.

Theorem cond_parse_correct (e : cexpr) : cond_parse (raw e) = Some (negb (ceval e =? 0)%N).
Proof.
  unfold cond_parse. rewrite p12_Y.
  assert (H : Y (List.length (raw e)) 4 (raw e ++ []) = POk (ceval e) []).
  { apply parser_inverts_printer; [apply erank_le4 | apply pd_le_length | apply cont_stop; left; reflexivity]. }
  rewrite app_nil_r in H. rewrite H. reflexivity.
Qed.
