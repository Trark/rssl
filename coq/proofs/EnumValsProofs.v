(* EnumValsProofs.v — an enumerator without an initialiser is its predecessor plus one, exactly: the typed bookkeeping
   of the type checker never wraps, and the conversion to the selected underlying type changes no value. *)
From Coq Require Import List ZArith Bool Lia.
From RV Require Import EvalSem EnumVals EvaluatorProofs.
Import ListNotations.
Local Open Scope Z_scope.

Lemma enum_next_int c : enum_first_ok c = true ->
  exists c', enum_next c = Some c' /\ enum_first_ok c' = true /\
             exists z, enum_int c = Some z /\ enum_int c' = Some (z + 1).
Proof.
  destruct c as [b|k v| | |]; try discriminate; intros H.
  - eexists. split; [reflexivity|]. split; [reflexivity|]. exists (if b then 1 else 0). split; reflexivity.
  - destruct k; try discriminate; cbn [enum_next enum_first_ok] in *.
    + eexists. split; [reflexivity|]. split; [reflexivity|]. exists v. split; reflexivity.
    + destruct (in_range KInt32 (v + 1)) eqn:R; eexists; (split; [reflexivity|]); (split; [cbn; try exact R; reflexivity|]);
        exists v; split; reflexivity.
    + destruct (in_range KUInt32 (v + 1)) eqn:R; eexists; (split; [reflexivity|]); (split; [cbn; try exact R; reflexivity|]);
        exists v; split; reflexivity.
Qed.

Lemma enum_fill_ints n : forall c z, enum_first_ok c = true -> enum_int c = Some z ->
  exists cs, enum_fill c n = Some cs /\
             all_some (map enum_int cs) = Some (map (fun i => z + Z.of_nat i) (seq 0 (S n))).
Proof.
  induction n as [|n IH]; intros c z Hok Hz.
  - exists [c]. split; [reflexivity|]. cbn [map seq all_some]. rewrite Hz. cbn. rewrite Z.add_0_r. reflexivity.
  - destruct (enum_next_int c Hok) as (c' & Hn & Hok' & z' & Hz' & Hz1). rewrite Hz in Hz'. inversion Hz'; subst z'.
    destruct (IH c' (z + 1) Hok' Hz1) as (cs & Hf & Ha).
    exists (c :: cs). split.
    + cbn [enum_fill]. rewrite Hn, Hf. reflexivity.
    + cbn [map all_some]. rewrite Hz, Ha. cbn [option_map]. f_equal.
      change (seq 0 (S (S n))) with (0%nat :: seq 1 (S n)). cbn [map]. rewrite Z.add_0_r. f_equal.
      rewrite <- seq_shift, map_map. apply map_ext. intros i. lia.
Qed.

Lemma fold_min_max zs z : In z zs -> fold_right Z.min 0 zs <= z <= fold_right Z.max 0 zs.
Proof. induction zs as [|a r IH]; intros Hz; [destruct Hz|]. destruct Hz as [<-|H]; cbn [fold_right]; [lia|specialize (IH H); lia]. Qed.

Lemma enum_type_range zs k : enum_type zs = Some k -> forall z, In z zs -> in_range k z = true.
Proof.
  unfold enum_type. intros H z Hz. pose proof (fold_min_max zs z Hz).
  destruct ((lo KInt32 <=? fold_right Z.min 0 zs) && (fold_right Z.max 0 zs <=? hi KInt32)) eqn:A.
  - inversion H; subst. apply andb_true_iff in A as [A1 A2]. apply Z.leb_le in A1, A2.
    unfold in_range. apply andb_true_iff. split; apply Z.leb_le; lia.
  - destruct ((lo KUInt32 <=? fold_right Z.min 0 zs) && (fold_right Z.max 0 zs <=? hi KUInt32)) eqn:B; [|discriminate].
    inversion H; subst. apply andb_true_iff in B as [B1 B2]. apply Z.leb_le in B1, B2.
    unfold in_range. apply andb_true_iff. split; apply Z.leb_le; lia.
Qed.

Theorem enum_values_exact first n : enum_first_ok first = true -> enum_impl first n = enum_ref first n.
Proof.
  intros Hok. destruct (enum_next_int first Hok) as (_ & _ & _ & z & Hz & _).
  destruct (enum_fill_ints n first z Hok Hz) as (cs & Hf & Ha).
  unfold enum_impl, enum_ref. rewrite Hf, Ha, Hz.
  destruct (enum_type _) as [k|] eqn:T; [|reflexivity]. f_equal.
  rewrite <- (map_id (map (fun i => z + Z.of_nat i) (seq 0 (S n)))) at 2. apply map_ext_in.
  intros x Hx. apply wrap_id. eapply enum_type_range; eassumption.
Qed.
