(* SyntaxBridge.v — the printer model with numeric precedences, associativity and sides (Syntax.fmt) prints, token for
   token, the level-directed text `pr` of SyntaxProofs.v, provided the precedence table orders the node kinds the way
   the parser's levels do. *)
From Coq Require Import List NArith Bool String Ascii Lia Arith.
From RV Require Import Syntax SyntaxProofs.
Import ListNotations.
Local Open Scope list_scope.

Section Bridge.
Variable un_prec : string -> N.
Variable un_sp : string -> string.
Variable un_post : string -> bool.
Variable bin_prec : string -> N.
Variable bin_sp : string -> string.
Variable bin_tight : string -> bool.
Variable p_leaf p_tern p_sub p_mem p_call p_cast : N.
Variable call_obj_outer call_arg_outer : N.
Variable assoc_of : N -> assoc.
Variable sep_chars : list ascii.
Variable sides : string -> list side.

Variable uop : string -> bool.
Variable bop : string -> bool.
Variable blv : string -> nat.
Variable lvN : N -> nat.            (* the parser level a printer precedence stands for *)
Variable precs : list N.

Let Fmt := fmt un_prec un_sp un_post bin_prec bin_sp bin_tight p_leaf p_tern p_sub p_mem p_call p_cast
               call_obj_outer call_arg_outer assoc_of sep_chars sides.
Let Prec := prec un_prec bin_prec p_leaf p_tern p_sub p_mem p_call p_cast.
Let El := el un_post blv.
Let Raw := raw un_post un_sp blv bin_sp.
Let Wrap := wrap un_post blv.

(* in the position (outer precedence, side) exactly the nodes of level <= c are printed without parentheses *)
Definition ctx_ok (outer : N) (s : side) (c : nat) : Prop :=
  forall p, In p precs -> requires_paren assoc_of p outer s = negb (Nat.leb (lvN p) c).

Hypothesis Hleaf : In p_leaf precs /\ lvN p_leaf = 0.
Hypothesis Hun : forall o, uop o = true -> In (un_prec o) precs /\ lvN (un_prec o) = if un_post o then 1 else 2.
Hypothesis Hbinp : forall o, bop o = true -> In (bin_prec o) precs /\ lvN (bin_prec o) = blv o.
Hypothesis Htern : In p_tern precs /\ lvN p_tern = 13.
Hypothesis Hsub : In p_sub precs /\ lvN p_sub = 1.
Hypothesis Hmem : In p_mem precs /\ lvN p_mem = 1.
Hypothesis Hcall : In p_call precs /\ lvN p_call = 1.
Hypothesis Hcast : In p_cast precs /\ lvN p_cast = 2.

Hypothesis Cpost : forall o, uop o = true -> un_post o = true -> ctx_ok (un_prec o) (side_at sides "UnaryOperation" 0) 1.
Hypothesis Cpre : forall o, uop o = true -> un_post o = false -> ctx_ok (un_prec o) (side_at sides "UnaryOperation" 1) 2.
Hypothesis Cbin : forall o, bop o = true ->
  ctx_ok (bin_prec o) (side_at sides "BinaryOperation" 0) (lctx blv o) /\
  ctx_ok (bin_prec o) (side_at sides "BinaryOperation" 1) (rctx blv o).
Hypothesis Ctern : ctx_ok p_tern (side_at sides "TernaryConditional" 0) 12 /\
                   ctx_ok p_tern (side_at sides "TernaryConditional" 1) 13 /\
                   ctx_ok p_tern (side_at sides "TernaryConditional" 2) 13.
Hypothesis Csub : ctx_ok p_sub (side_at sides "ArraySubscript" 0) 1 /\ ctx_ok p_sub (side_at sides "ArraySubscript" 1) 1.
Hypothesis Cmem : ctx_ok p_mem (side_at sides "Member" 0) 1.
Hypothesis Ccall : ctx_ok call_obj_outer (side_at sides "Call" 0) 1 /\ ctx_ok call_arg_outer (side_at sides "Call" 1) 13.
Hypothesis Ccast : ctx_ok p_cast (side_at sides "Cast" 0) 2.

Lemma toks_app a b : toks (a ++ b) = toks a ++ toks b.
Proof. induction a as [|[t|] a IH]; cbn; [reflexivity | rewrite IH; reflexivity | exact IH]. Qed.

Lemma toks_glue op operand : toks (glue_prefix sep_chars op operand) = TSym op :: toks operand.
Proof.
  unfold glue_prefix. destruct (last_char op); [|reflexivity]. destruct (first_char operand); [|reflexivity].
  destruct (Ascii.eqb a a0 && ascii_in a sep_chars); reflexivity.
Qed.

Lemma toks_commas (f : expr -> list item) (g : expr -> list tok) args :
  Forall (fun a => toks (f a) = g a) args ->
  toks (comma_list (map f args)) = commas (map g args).
Proof.
  induction 1 as [|a r Ha Hr IH]; [reflexivity|].
  destruct r as [|b r'].
  - cbn. exact Ha.
  - change (comma_list (map f (a :: b :: r'))) with (f a ++ [sym ","; Sp] ++ comma_list (map f (b :: r'))).
    change (commas (map g (a :: b :: r'))) with (g a ++ sy "," :: commas (map g (b :: r'))).
    rewrite toks_app, Ha. cbn [app toks sym]. rewrite IH. reflexivity.
Qed.

Section Trees.
Variable G : string -> bool.
Let Wf := wf G uop bop.

Lemma prec_level e : Wf e -> In (Prec e) precs /\ lvN (Prec e) = El e.
Proof.
  destruct e; cbn [wf]; intros H; unfold Prec, El; cbn [prec el]; auto.
  - apply Hun. exact (proj1 H).
  - apply Hbinp. exact (proj1 H).
Qed.

Definition bridged (e : expr) : Prop :=
  forall outer s c, ctx_ok outer s c -> toks (Fmt e outer s) = Wrap c e (Raw e).

Lemma bridge_node e body :
  Wf e ->
  (forall outer s, Fmt e outer s = if requires_paren assoc_of (Prec e) outer s then [sym "("] ++ body ++ [sym ")"] else body) ->
  toks body = Raw e -> bridged e.
Proof.
  intros Hw Hf Hb outer s c Hc. rewrite Hf. destruct (prec_level e Hw) as [Hin Hlv].
  rewrite (Hc _ Hin), Hlv. unfold Wrap, wrap. fold El. destruct (Nat.leb (El e) c); cbn [negb].
  - exact Hb.
  - cbn [app toks]. rewrite toks_app, Hb. reflexivity.
Qed.

Theorem bridge_all : forall e, Wf e -> bridged e.
Proof.
  induction e as [x|i x|o a IHa|o a b IHa IHb|c a b IHc IHa IHb|a i IHa IHi|a m IHa|fn args IHf IHargs|t a IHa]
    using expr_ind'; intros Hw;
    (eapply bridge_node; [exact Hw | intros outer s; unfold Fmt; cbn [fmt]; reflexivity |]); fold Fmt; unfold Raw; cbn [prec raw].
  - reflexivity.
  - reflexivity.
  - destruct Hw as [Ho Ha]. destruct (un_post o) eqn:Hpo.
    + rewrite toks_app, (IHa Ha _ _ 1 (Cpost o Ho Hpo)). reflexivity.
    + rewrite toks_glue, (IHa Ha _ _ 2 (Cpre o Ho Hpo)). reflexivity.
  - destruct Hw as (Ho & Ha & Hb). destruct (Cbin o Ho) as [Cl Cr].
    rewrite !toks_app, (IHa Ha _ _ _ Cl), (IHb Hb _ _ _ Cr). destruct (bin_tight o); reflexivity.
  - destruct Hw as (Hc & Ha & Hb). destruct Ctern as (C0 & C1 & C2).
    rewrite !toks_app, (IHc Hc _ _ _ C0), (IHa Ha _ _ _ C1), (IHb Hb _ _ _ C2). reflexivity.
  - destruct Hw as (Ha & Hi). destruct Csub as (C0 & C1).
    rewrite !toks_app, (IHa Ha _ _ _ C0), (IHi Hi _ _ _ C1). reflexivity.
  - rewrite toks_app. f_equal. pose proof (IHa Hw _ _ 1 Cmem) as H1.
    destruct (lit_cases a) as [[x ->]|E]; [|rewrite !E; exact H1].
    cbn [app toks]. rewrite toks_app, H1. reflexivity.
  - apply wf_call in Hw. destruct Hw as [Hf Hargs]. destruct Ccall as (C0 & C1).
    rewrite !toks_app, (IHf Hf _ _ _ C0), (toks_commas _ (fun a => Wrap 13 a (Raw a))); [reflexivity|].
    rewrite Forall_forall in *. intros x Hx. apply (IHargs x Hx (Hargs x Hx)), C1.
  - rewrite toks_app, (IHa (proj2 Hw) _ _ _ Ccast). reflexivity.
Qed.

End Trees.
End Bridge.
