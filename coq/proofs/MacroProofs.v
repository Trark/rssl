(* MacroProofs.v — macro expansion (Macro.v) always terminates with a verdict, never reaches the loop's missing
   increment, and leaves no unprocessed `##`; #include equals running the included items in place, as do items run
   under another file's name in general (run_app_other).  Generic in the paste function and the macro table.
   The driver's step on an item other than #include is `item_step`; DriverProofs.v builds on it. *)
From Coq Require Import List Bool String Arith Lia.
From RV Require Import Macro MacroParts.
Import ListNotations.
Local Open Scope list_scope.

Definition good (r : xres) : Prop :=
  match r with XOk out => noc out | XErr _ => True | XFuel => False | XHang => False end.

Lemma step_good self inner toks next mi m pos lf rest args :
  (forall toks' next' early' lf',
      early' <= next' -> noc (firstn next' toks') ->
      List.length toks' - next' < List.length toks - next -> good (self toks' next' early' lf')) ->
  (forall out, good (inner mi out)) ->
  noc (firstn pos toks) -> pos <= List.length toks ->
  List.length rest < List.length toks - next ->
  (forall a, In a args -> List.length a < List.length toks - next) ->
  good (step_body self inner mi m toks pos lf rest args).
Proof.
  intros Hself Hinner Hnoc Hpos Hrest Hargs. unfold step_body.
  assert (Hall : Forall good (map (fun a => self a 0 0 None) args)).
  { apply Forall_map, Forall_forall. intros a Ha. apply Hself; [lia | constructor | specialize (Hargs a Ha); lia]. }
  apply all_ok_spec with (acc := []) in Hall; [|constructor].
  destruct (all_ok (map (fun a => self a 0 0 None) args) []) as [e|args']; [exact Hall|].
  pose proof (Hinner (subst (m_body m) args')) as Hin.
  destruct (inner mi (subst (m_body m) args')) as [out| | |]; cbn [good] in Hin; try exact Hin.
  assert (Hl : List.length (firstn pos toks ++ out) = pos + List.length out)
    by (rewrite app_length, firstn_length_le by exact Hpos; reflexivity).
  apply Hself; [lia | | rewrite app_assoc, app_length, Hl; lia].
  rewrite app_assoc, <- Hl, firstn_app_length_eq. apply Forall_app. split; assumption.
Qed.

(* each nested rescan disables one more macro, so this bounds the nesting *)
Definition enabled (dis : list bool) : nat := List.length (filter negb dis).

Lemma enabled_set dis mi : nth mi dis false = false -> mi < List.length dis ->
  S (enabled (set_nth dis mi true)) = enabled dis /\ List.length (set_nth dis mi true) = List.length dis.
Proof.
  revert mi. induction dis as [|b r IH]; intros mi Hn Hlt; [cbn in Hlt; lia|].
  destruct mi as [|j].
  - cbn in Hn. subst b. cbn. split; reflexivity.
  - cbn [nth] in Hn. cbn [List.length] in Hlt. destruct (IH j Hn ltac:(lia)) as [H1 H2].
    cbn [set_nth]. unfold enabled in *. cbn [filter List.length]. destruct b; cbn [negb List.length]; split; lia.
Qed.

Lemma enabled_all_false {A} (l : list A) : enabled (map (fun _ => false) l) = List.length l.
Proof. unfold enabled. induction l as [|x r IH]; cbn; [reflexivity | rewrite IH; reflexivity]. Qed.

Section Term.
Variable paste : mtok -> mtok -> option mtok.
Variable defs : list macro.

Lemma loop_step_good self inner dis toks next early lastfn :
  (forall toks' next' early' lf',
      early' <= next' -> noc (firstn next' toks') ->
      List.length toks' - next' < List.length toks - next -> good (self toks' next' early' lf')) ->
  (forall mi out', mi < List.length defs -> nth mi dis false = false -> good (inner mi out')) ->
  early <= next -> noc (firstn next toks) ->
  good (loop_step paste defs self inner dis toks next early lastfn).
Proof.
  intros Hself Hinner Hen Hnoc. unfold loop_step.
  destruct (Nat.leb_spec (List.length toks) next) as [Hle|Hlt].
  { cbn [good]. rewrite firstn_all2 in Hnoc by exact Hle. exact Hnoc. }
  pose proof (find_spec defs dis toks early next lastfn ltac:(lia) Hnoc) as Hspec.
  destruct (find defs dis toks early next lastfn) as [mi pos|lp rp| |e|].
  - (* a macro invocation *)
    destruct Hspec as (mid & x & tail & m & Htoks & Hpos & Hmid & Hm & Hu). cbn [Nat.add] in Hpos.
    apply usable_true in Hu as (Hdis & _ & Hobj & Hfn). rewrite Hm.
    assert (Hmi : mi < List.length defs) by (apply nth_error_Some; congruence).
    destruct (split_at toks mid _ _ pos Htoks (eq_sym Hpos)) as (Hafter & Hfirst & Hlen).
    rewrite Hafter.
    assert (Hstep : forall lf rest args, List.length rest < List.length toks - next ->
              (forall a, In a args -> List.length a < List.length toks - next) ->
              good (step_body self inner mi m toks pos lf rest args)).
    { intros lf rest args. apply step_good; try assumption; [intros out; apply Hinner; assumption | | lia].
      rewrite Hfirst. exact Hmid. }
    destruct (m_fn m) eqn:Hfnm.
    + destruct (Hfn eq_refl) as [Hlp Hnext].
      destruct (split_args tail) as [rest args|e] eqn:Hsa; [|exact Logic.I].
      destruct (split_args_bound tail (S pos) rest args Hlp Hsa) as [Hr Ha].
      assert (Ha' : forall a, In a args -> List.length a < List.length toks - next).
      { intros a Hin. specialize (Ha a Hin). lia. }
      destruct (Nat.eqb (m_params m) 0).
      * destruct args as [|a0 [|a1 ar]]; try exact Logic.I.
        destruct (forallb is_ws a0); [|exact Logic.I].
        apply (Hstep (Some mi) rest []); [lia | intros a []].
      * destruct (Nat.eqb (List.length args) (m_params m)); [|exact Logic.I].
        apply (Hstep (Some mi) rest args); [lia | exact Ha'].
    + specialize (Hobj eq_refl). apply (Hstep None tail []); [lia | intros a []].
  - (* ## *)
    destruct Hspec as (mid & tail & dl & dr & Htoks & Hmid & Hnext & Hdl & -> & Hdr & ->).
    rewrite app_nil_r in Hdl. cbn [Nat.add] in *. set (c := List.length mid) in *.
    pose proof (first_non_ws_bound _ _ _ Hdl) as Bl. pose proof (first_non_ws_bound _ _ _ Hdr) as Br.
    rewrite rev_length in Bl. fold c in Bl.
    destruct (split_at toks mid _ _ c Htoks eq_refl) as (_ & Hfirstc & Hlen).
    destruct (nth_error toks (c - dl - 1)) as [a|] eqn:Ha; [|apply nth_error_None in Ha; lia].
    destruct (nth_error toks (c + dr + 1)) as [b|] eqn:Hb; [|apply nth_error_None in Hb; lia].
    destruct (paste a b) as [t|]; [|exact Logic.I].
    assert (Hl : List.length (firstn (c - dl - 1) toks) = c - dl - 1) by (apply firstn_length_le; lia).
    apply Hself; [lia | | rewrite app_length; cbn [List.length]; rewrite skipn_length, Hl; lia].
    (* with the prefix named, the length to rewrite occurs once *)
    set (pre := firstn (c - dl - 1) toks) in *. rewrite <- Hl, firstn_app_length_eq.
    apply (Forall_firstn_le _ _ c); [lia | rewrite Hfirstc; exact Hmid].
  - exact Hspec.
  - exact Logic.I.
  - (* the skipped increment is unreachable: no ## lies left of next *)
    destruct Hspec as (mid & tail & Htoks & Hlt'). cbn [Nat.add] in Hlt'. exfalso.
    assert (Hin : In MConcat (firstn next toks)).
    { rewrite Htoks, firstn_app. apply in_or_app. right.
      replace (next - List.length mid) with (S (next - List.length mid - 1)) by lia. left. reflexivity. }
    unfold noc in Hnoc. rewrite Forall_forall in Hnoc. exact (Hnoc _ Hin eq_refl).
Qed.

Lemma expand_good : forall d dis, List.length dis = List.length defs -> enabled dis < d ->
  forall n toks next early lastfn, early <= next -> noc (firstn next toks) -> List.length toks - next < n ->
  good (expand paste defs d dis n toks next early lastfn).
Proof.
  induction d as [|d IHd]; intros dis Hlen Hen; [lia|].
  induction n as [|n IHn]; intros toks next early lastfn Hle Hnoc Hm; [lia|].
  rewrite expand_eq. apply loop_step_good; try assumption.
  - intros toks' next' early' lf' H1 H2 H3. apply IHn; try assumption. lia.
  - intros mi out Hmi Hdis.
    destruct (enabled_set dis mi Hdis ltac:(lia)) as [He Hl].
    apply IHd; try lia. constructor.
Qed.

Theorem apply_macros_good toks : good (apply_macros paste defs toks).
Proof.
  unfold apply_macros. apply expand_good; try lia.
  - rewrite map_length. reflexivity.
  - rewrite enabled_all_false. lia.
  - constructor.
Qed.

End Term.

Definition no_include (it : item) : Prop := match it with IInclude _ => False | _ => True end.

Lemma item_cases it : (exists f, it = IInclude f) \/ no_include it.
Proof. destruct it as [ | | |f| ]; [right|right|right|left; exists f|right]; try exact Logic.I. reflexivity. Qed.

Section Run.
Variable paste : mtok -> mtok -> option mtok.
Variable files : string -> option (list item).

Notation Run := (run paste files).

Fixpoint no_once (its : list item) : bool :=
  match its with
  | [] => true
  | IPragmaOnce :: _ => false
  | _ :: r => no_once r
  end.

Lemma no_once_cons it rest : no_once (it :: rest) = true -> it <> IPragmaOnce /\ no_once rest = true.
Proof. destruct it; cbn [no_once]; intros H; split; try discriminate; exact H. Qed.

Definition item_step (self : string) (it : item) (st : pstate) : pstate + perr :=
  match it with
  | IText ts =>
      match apply_macros paste (ps_macros st) ts with
      | XOk out => inl {| ps_macros := ps_macros st; ps_once := ps_once st; ps_out := ps_out st ++ out |}
      | XErr e => inr (PMacro e)
      | XFuel => inr PFuel
      | XHang => inr PHang
      end
  | IDefine cmd =>
      match parse_define cmd with
      | Some m => inl {| ps_macros := remove_macro (m_name m) (ps_macros st) ++ [m]; ps_once := ps_once st; ps_out := ps_out st |}
      | None => inr PInvalidDefine
      end
  | IUndef x => inl {| ps_macros := remove_macro x (ps_macros st); ps_once := ps_once st; ps_out := ps_out st |}
  | IPragmaOnce => inl {| ps_macros := ps_macros st; ps_once := self :: ps_once st; ps_out := ps_out st |}
  | IInclude _ => inl st
  end.

Lemma run_step fuel self it rest st : no_include it ->
  Run (S fuel) self (it :: rest) st =
  match item_step self it st with inl st' => Run fuel self rest st' | inr e => inr e end.
Proof.
  destruct it as [ts|cmd|x|f|]; intros Hi; try destruct Hi; cbn [run item_step]; try reflexivity.
  - destruct (apply_macros paste (ps_macros st) ts); reflexivity.
  - destruct (parse_define cmd); reflexivity.
Qed.

Lemma run_include fuel self f rest st :
  Run (S fuel) self (IInclude f :: rest) st =
  match files f with
  | None => inr PMissingFile
  | Some body => match Run fuel f (if existsb (String.eqb f) (ps_once st) then [] else body) st with
                 | inl st' => Run fuel self rest st'
                 | inr e => inr e
                 end
  end.
Proof. reflexivity. Qed.

Lemma item_step_verdict self it st : item_step self it st <> inr PFuel /\ item_step self it st <> inr PHang.
Proof.
  destruct it as [ts|cmd|x|f|]; cbn [item_step]; try (split; discriminate).
  - pose proof (apply_macros_good paste (ps_macros st) ts) as G.
    destruct (apply_macros paste (ps_macros st) ts); try contradiction; split; discriminate.
  - destruct (parse_define cmd); split; discriminate.
Qed.

Lemma item_step_self self self' it st : it <> IPragmaOnce -> item_step self it st = item_step self' it st.
Proof. destruct it; try reflexivity. intros H. contradiction H. reflexivity. Qed.

Lemma item_step_once self it st st' g : item_step self it st = inl st' ->
  existsb (String.eqb g) (ps_once st) = true -> existsb (String.eqb g) (ps_once st') = true.
Proof.
  destruct it as [ts|cmd|x|f|]; cbn [item_step]; intros H Hg.
  - destruct (apply_macros paste (ps_macros st) ts); inversion H; exact Hg.
  - destruct (parse_define cmd); inversion H; exact Hg.
  - inversion H; exact Hg.
  - inversion H; subst; exact Hg.
  - inversion H. cbn [ps_once existsb]. rewrite Hg. apply orb_true_r.
Qed.

Lemma run_mono : forall fuel self its st r, Run fuel self its st = inl r -> Run (S fuel) self its st = inl r.
Proof.
  induction fuel as [|fuel IH]; intros self its st r H; [discriminate|].
  destruct its as [|it rest]; [exact H|].
  destruct (item_cases it) as [[f ->]|Hi].
  - rewrite run_include in H |- *. destruct (files f) as [body|]; [|discriminate].
    destruct (Run fuel f _ st) as [st'|e] eqn:H1; [|discriminate]. rewrite (IH _ _ _ _ H1). apply IH, H.
  - rewrite run_step in H |- * by exact Hi. destruct (item_step self it st); [apply IH, H | exact H].
Qed.

Lemma run_mono_le fuel fuel' self its st r : fuel <= fuel' -> Run fuel self its st = inl r -> Run fuel' self its st = inl r.
Proof. intros Hle Hr. induction Hle as [|k Hle IH]; [exact Hr | apply run_mono; exact IH]. Qed.

Lemma run_self_irrelevant : forall fuel self self' its st, no_once its = true -> Run fuel self its st = Run fuel self' its st.
Proof.
  induction fuel as [|fuel IH]; intros self self' its st Hn; [reflexivity|].
  destruct its as [|it rest]; [reflexivity|]. apply no_once_cons in Hn as [Hit Hn].
  destruct (item_cases it) as [[f ->]|Hi].
  - rewrite !run_include. destruct (files f) as [body|]; [|reflexivity].
    destruct (Run fuel f _ st); [apply IH, Hn | reflexivity].
  - rewrite !run_step, (item_step_self self self' it st Hit) by exact Hi.
    destruct (item_step self' it st); [apply IH, Hn | reflexivity].
Qed.

Lemma run_app : forall f1 f2 self a b st st1 r,
  Run f1 self a st = inl st1 -> Run f2 self b st1 = inl r -> Run (f1 + f2) self (a ++ b) st = inl r.
Proof.
  induction f1 as [|f1 IH]; intros f2 self a b st st1 r Ha Hb; [discriminate|].
  destruct a as [|it rest].
  - cbn in Ha. inversion Ha; subst st1. cbn [app]. apply (run_mono_le f2); [lia | exact Hb].
  - cbn [app Nat.add]. destruct (item_cases it) as [[f ->]|Hi].
    + rewrite run_include in Ha |- *. destruct (files f) as [body|]; [|discriminate].
      destruct (Run f1 f _ st) as [st'|e] eqn:H1; [|discriminate].
      rewrite (run_mono_le f1 (f1 + f2) _ _ _ _ ltac:(lia) H1). apply (IH f2 self rest b _ st1 r Ha Hb).
    + rewrite run_step in Ha |- * by exact Hi.
      destruct (item_step self it st); [apply (IH f2 self rest b _ st1 r Ha Hb) | discriminate].
Qed.

(* items without #pragma once may run under another file's name (an included file, the initial defines), so running
   them and then `b` is running the concatenation *)
Lemma run_app_other fuel self g a b st st1 r : no_once a = true ->
  Run fuel g a st = inl st1 -> Run fuel self b st1 = inl r -> Run (fuel + fuel) self (a ++ b) st = inl r.
Proof.
  intros Hn H1 H2. apply (run_app fuel fuel self a b st st1 r); [|exact H2].
  rewrite (run_self_irrelevant fuel self g a st Hn). exact H1.
Qed.

(* #include "f" is the items of f run in place (a file without #pragma once) *)
Theorem include_is_paste fuel self f body rest st st1 st2 :
  files f = Some body -> existsb (String.eqb f) (ps_once st) = false -> no_once body = true ->
  Run fuel f body st = inl st1 -> Run fuel self rest st1 = inl st2 ->
  Run (S fuel) self (IInclude f :: rest) st = inl st2 /\ Run (fuel + fuel) self (body ++ rest) st = inl st2.
Proof.
  intros Hf Ho Hn H1 H2. split; [|exact (run_app_other fuel self f body rest st st1 st2 Hn H1 H2)].
  rewrite run_include, Hf, Ho, H1. exact H2.
Qed.

Lemma run_once_grows : forall fuel self its st st', Run fuel self its st = inl st' ->
  forall g, existsb (String.eqb g) (ps_once st) = true -> existsb (String.eqb g) (ps_once st') = true.
Proof.
  induction fuel as [|fuel IH]; intros self its st st' H g Hg; [discriminate|].
  destruct its as [|it rest]; [inversion H; subst; exact Hg|].
  destruct (item_cases it) as [[f ->]|Hi].
  - rewrite run_include in H. destruct (files f) as [body|]; [|discriminate].
    destruct (Run fuel f _ st) as [st1|] eqn:H1; [|discriminate]. apply (IH _ _ _ _ H), (IH _ _ _ _ H1), Hg.
  - rewrite run_step in H by exact Hi. destruct (item_step self it st) as [st1|] eqn:H1; [|discriminate].
    apply (IH _ _ _ _ H), (item_step_once _ _ _ _ _ H1), Hg.
Qed.

(* a file with #pragma once at its top level is marked when it has been run *)
Theorem pragma_once_marks : forall pre fuel f post st st',
  Run fuel f (pre ++ IPragmaOnce :: post) st = inl st' -> existsb (String.eqb f) (ps_once st') = true.
Proof.
  induction pre as [|it pre IH]; intros [|fuel] f post st st' H; try discriminate; cbn [app] in H.
  - cbn [run] in H. apply (run_once_grows _ _ _ _ _ H). cbn [ps_once existsb]. rewrite String.eqb_refl. reflexivity.
  - destruct (item_cases it) as [[g ->]|Hi].
    + rewrite run_include in H. destruct (files g); [|discriminate].
      destruct (Run fuel g _ st); [apply (IH _ _ _ _ _ H) | discriminate].
    + rewrite run_step in H by exact Hi. destruct (item_step f it st); [apply (IH _ _ _ _ _ H) | discriminate].
Qed.

End Run.
