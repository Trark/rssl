(* MetadataProofs.v — consequences of the slot assignment (Bindings.v) for the reflection data and the text the HLSL
   exporter prints from the same records: the inline descriptor struct of a group, one 8-byte member per inline binding. *)
From Coq Require Import List NArith Bool Lia.
From RV Require Import Bindings BindingsProofs.
Import ListNotations.
Local Open Scope N_scope.

Section M.
Variable okind : Type.
Variable metal2 is_addr : okind -> bool.

Notation decl := (Bindings.decl okind).
Notation assign := (Bindings.assign okind metal2 is_addr).
Notation binding_ok := (BindingsProofs.binding_ok okind metal2 is_addr).
Notation takes_inline := (Bindings.takes_inline okind is_addr).
Notation slot_count := (Bindings.slot_count okind metal2).

Lemma inline_one_slot p dflt d b off :
  metal_slot_layout p = false -> binding_ok p dflt d (Some b) -> b_loc b = InlineConstant off -> b_slots b = 1.
Proof.
  intros Hm Hok Hl. cbn in Hok. destruct Hok as (_ & _ & H). rewrite Hl in H. destruct H as [Ht ->].
  destruct (takes_inline_true okind is_addr p d Ht) as (o & K & _ & Ha).
  unfold Bindings.slot_count, Bindings.slice_cost, Bindings.array_count. unfold Bindings.decl_is_addr in Ha.
  rewrite K in *. destruct (d_array d); [discriminate|]. rewrite Hm. reflexivity.
Qed.

Lemma inline_ranges_len8 p dflt ds bs g :
  metal_slot_layout p = false -> Forall2 (binding_ok p dflt) ds bs ->
  forall o len, In (o, len) (inline_ranges g bs) -> len = 8.
Proof.
  intros Hm F. induction F as [|d ob ds' bs' Hok F IH]; intros o len Hin; [destruct Hin|].
  unfold inline_ranges in Hin. cbn [flat_map] in Hin. apply in_app_or in Hin as [Hin|Hin]; [|exact (IH _ _ Hin)].
  destruct ob as [[s [i|off] n]|]; cbn in Hin; try contradiction.
  destruct (s =? g); cbn in Hin; [|contradiction]. destruct Hin as [E|[]]. inversion E; subst.
  pose proof (inline_one_slot p dflt d (mkBinding s (InlineConstant o) n) o Hm Hok eq_refl) as H1. cbn in H1. rewrite H1. reflexivity.
Qed.

(* the exporter's inline descriptor struct of a group: one 8-byte member per inline binding, at the binding's offset;
   off the Metal slot layout (where a member costs two slots) its assertions `offset + 8 <= size` and `size == 8 * members`
   hold for every declaration list *)
Theorem inline_descriptor_struct p dflt (ds : list decl) g l z :
  metal_slot_layout p = false ->
  In (g, l, z) (snd (assign p dflt ds)) ->
  let ranges := inline_ranges g (fst (assign p dflt ds)) in
  z = 8 * N.of_nat (List.length ranges) /\
  (forall o len, In (o, len) ranges -> len = 8 /\ o + 8 <= z) /\
  tiles 0 ranges.
Proof.
  intros Hm Hin ranges.
  pose proof (assign_bindings_ok okind metal2 is_addr p dflt ds) as F.
  pose proof (assign_inline_tile okind metal2 is_addr p dflt ds g) as T.
  destruct (assign_blocks okind metal2 is_addr p dflt ds) as (_ & _ & Hb).
  destruct (Hb g l z Hin) as [_ Hz]. fold ranges in Hz, T.
  assert (H8 : forall o len, In (o, len) ranges -> len = 8) by (apply (inline_ranges_len8 p dflt ds _ g Hm F)).
  assert (Htot := total_const 8 ranges H8).
  split; [lia|]. split; [|exact T].
  intros o len Hi. split; [apply (H8 o len Hi)|].
  destruct (tiles_bounds _ _ _ _ T Hi) as [_ Hle]. rewrite (H8 o len Hi) in Hle. lia.
Qed.

End M.
