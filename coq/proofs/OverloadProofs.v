(* OverloadProofs.v — overload selection (model of find_function_type) for any rank tables that meet the stated
   obligations.  The verdict is a function of the set of candidates: winners, least histogram and finalists are each
   invariant under permutation.  "Never dominated" and "exact wins" both come from dominating_lowers_hist. *)
From Coq Require Import List NArith Bool Lia Permutation.
From RV Require Import Overload ListFacts.
Import ListNotations.
Local Open Scope N_scope.

Lemma lex_lt_irrefl a : lex_lt a a = false.
Proof. induction a as [|x a IH]; cbn; [reflexivity|]. rewrite N.ltb_irrefl. exact IH. Qed.

Lemma lex_lt_cons x a y b : lex_lt (x :: a) (y :: b) = true <-> x < y \/ (x = y /\ lex_lt a b = true).
Proof.
  cbn [lex_lt]. destruct (N.ltb_spec x y) as [L|L]; [split; [left; exact L | reflexivity]|].
  destruct (N.ltb_spec y x) as [G|G]; [split; [discriminate | lia]|].
  split; [intros H; right; split; [lia | exact H] | intros [H|[_ H]]; [lia | exact H]].
Qed.

Lemma lex_lt_trans a : forall b c, lex_lt a b = true -> lex_lt b c = true -> lex_lt a c = true.
Proof.
  induction a as [|x a IH]; intros [|y b] [|z c]; try now cbn.
  rewrite !lex_lt_cons. intros [H1|[E1 H1]] [H2|[E2 H2]]; [left; lia | left; lia | left; lia | right].
  split; [lia | eapply IH; eassumption].
Qed.

Lemma lex_le_antisym a : forall b, lex_lt a b = false -> lex_lt b a = false -> a = b.
Proof.
  induction a as [|x a IH]; intros [|y b] H1 H2; cbn in *; try discriminate; [reflexivity|].
  destruct (N.ltb_spec x y), (N.ltb_spec y x); try discriminate; try lia.
  assert (x = y) by lia. subst. f_equal. apply IH; assumption.
Qed.

(* "not above", read as an order: a <= b <= c *)
Lemma lex_le_trans a b c : lex_lt b a = false -> lex_lt c b = false -> lex_lt c a = false.
Proof.
  intros H1 H2. destruct (lex_lt c a) eqn:E; [|reflexivity]. destruct (lex_lt a b) eqn:F.
  - rewrite (lex_lt_trans _ _ _ E F) in H2. discriminate.
  - rewrite (lex_le_antisym a b F H1) in E. congruence.
Qed.

Lemma list_eqb_eq a : forall b, list_eqb a b = true <-> a = b.
Proof.
  induction a as [|x a IH]; intros [|y b]; cbn; split; intros H; try discriminate; try reflexivity.
  - apply andb_true_iff in H as [H1 H2]. apply N.eqb_eq in H1. apply IH in H2. subst. reflexivity.
  - inversion H; subst. rewrite N.eqb_refl. cbn. apply IH. reflexivity.
Qed.

Section Proofs.
Variable nrank : Type.
Variable order : nrank -> N.
Variable vrank : Type.
Variable vrank_eqb : vrank -> vrank -> bool.
Variable w2b : list vrank.
Hypothesis vrank_eqb_spec : forall a b, vrank_eqb a b = true <-> a = b.

Notation cast := (cast nrank vrank).
Notation cand := (cand nrank vrank).
Notation worse := (worse nrank order).
Notation not_worse_all := (not_worse_all nrank order vrank).
Notation wins := (wins nrank order vrank).
Notation winners := (winners nrank order vrank).
Notation hist := (hist nrank vrank vrank_eqb w2b).
Notation best_order := (best_order nrank vrank vrank_eqb w2b).
Notation finalists := (finalists nrank order vrank vrank_eqb w2b).
Notation resolve := (resolve nrank order vrank vrank_eqb w2b).

Definition lmin (b h : list N) : list N := if lex_lt h b then h else b.

Lemma lmin_spec b h : lex_lt b (lmin b h) = false /\ lex_lt h (lmin b h) = false /\ (lmin b h = b \/ lmin b h = h).
Proof.
  unfold lmin. destruct (lex_lt h b) eqn:E; repeat split; auto using lex_lt_irrefl.
  destruct (lex_lt b h) eqn:F; [|reflexivity]. rewrite <- (lex_lt_trans _ _ _ E F). apply lex_lt_irrefl.
Qed.

Lemma fold_min_spec (ws : list cand) : forall b0,
  let r := fold_left (fun b c => lmin b (hist (snd c))) ws b0 in
  (r = b0 \/ In r (map (fun c => hist (snd c)) ws)) /\
  lex_lt b0 r = false /\
  (forall c, In c ws -> lex_lt (hist (snd c)) r = false).
Proof.
  induction ws as [|w ws IH]; intros b0; cbn [fold_left map].
  - repeat split; [left; reflexivity | apply lex_lt_irrefl | intros c []].
  - destruct (IH (lmin b0 (hist (snd w)))) as (I1 & I2 & I3).
    destruct (lmin_spec b0 (hist (snd w))) as (M1 & M2 & M3). repeat split.
    + destruct I1 as [->|I1]; [destruct M3 as [->| ->]; [left | right; left]; reflexivity | right; right; exact I1].
    + exact (lex_le_trans _ _ _ I2 M1).
    + intros c [<-|Hc]; [exact (lex_le_trans _ _ _ I2 M2) | apply I3, Hc].
Qed.

Lemma best_order_spec (ws : list cand) c0 : In c0 ws ->
  In (best_order ws) (map (fun c => hist (snd c)) ws) /\
  (forall c, In c ws -> lex_lt (hist (snd c)) (best_order ws) = false).
Proof.
  destruct ws as [|w ws]; [intros []|]. intros _. unfold Overload.best_order.
  destruct (fold_min_spec (w :: ws) (hist (snd w))) as (I1 & _ & I3). cbn zeta in *. fold lmin in *.
  split; [|exact I3]. destruct I1 as [E|I1]; [|exact I1]. unfold lmin in E. rewrite E. left. reflexivity.
Qed.

Lemma best_order_unique (ws : list cand) (h : list N) :
  In h (map (fun c => hist (snd c)) ws) ->
  (forall c, In c ws -> lex_lt (hist (snd c)) h = false) ->
  h = best_order ws.
Proof.
  intros Hin Hmin. apply in_map_iff in Hin as (c & <- & Hc).
  destruct (best_order_spec ws c Hc) as (Bin & Bmin). apply in_map_iff in Bin as (b & Eb & Hb).
  apply lex_le_antisym; [apply Bmin, Hc | rewrite <- Eb; apply Hmin, Hb].
Qed.

Lemma best_order_perm ws ws' : Permutation ws ws' -> best_order ws = best_order ws'.
Proof.
  intros P. destruct ws as [|w ws].
  - apply Permutation_nil in P. subst. reflexivity.
  - destruct (best_order_spec (w :: ws) w (or_introl eq_refl)) as (Bin & Bmin).
    apply best_order_unique.
    + apply (Permutation_in _ (Permutation_map _ P)). exact Bin.
    + intros c Hc. apply Bmin. apply (Permutation_in _ (Permutation_sym P)). exact Hc.
Qed.

Lemma winners_perm cs cs' : Permutation cs cs' -> Permutation (winners cs) (winners cs').
Proof.
  intros P. unfold Overload.winners.
  rewrite (filter_ext (wins cs) (wins cs')) by (intros c; apply forallb_perm, P).
  apply filter_perm. exact P.
Qed.

Lemma finalists_perm cs cs' : Permutation cs cs' -> Permutation (finalists cs) (finalists cs').
Proof.
  intros P. unfold Overload.finalists. cbn zeta.
  assert (W := winners_perm cs cs' P). rewrite (best_order_perm _ _ W).
  apply filter_perm. exact W.
Qed.

Theorem resolve_perm cs cs' : Permutation cs cs' -> resolve cs = resolve cs'.
Proof.
  intros P. unfold Overload.resolve. assert (F := finalists_perm cs cs' P).
  destruct (finalists cs) as [|c [|c2 l]].
  - apply Permutation_nil in F. rewrite F. reflexivity.
  - apply Permutation_length_1_inv in F. rewrite F. reflexivity.
  - assert (L := Permutation_length F). destruct (finalists cs') as [|d [|d2 l']]; cbn in L; try discriminate.
    reflexivity.
Qed.

Lemma winners_in cs c : In c (winners cs) <-> In c cs /\ wins cs c = true.
Proof. unfold Overload.winners. apply filter_In. Qed.

Lemma finalists_in cs c : In c (finalists cs) <-> In c (winners cs) /\ hist (snd c) = best_order (winners cs).
Proof. unfold Overload.finalists. cbn zeta. rewrite filter_In, list_eqb_eq. reflexivity. Qed.

Lemma resolve_selected cs i : resolve cs = Selected i -> exists c, finalists cs = [c] /\ fst c = i.
Proof.
  unfold Overload.resolve. destruct (finalists cs) as [|c [|c2 l]]; try discriminate.
  intros H; inversion H; subst. exists c. split; reflexivity.
Qed.

Lemma unique_least_selected cs c :
  NoDup (map fst cs) -> In c (winners cs) ->
  (forall d, In d (winners cs) -> fst d <> fst c -> lex_lt (hist (snd c)) (hist (snd d)) = true) ->
  resolve cs = Selected (fst c).
Proof.
  intros Hnd Hc Hlt.
  assert (Hinj : forall d, In d (winners cs) -> fst d = fst c -> d = c).
  { intros d Hd. apply (map_injective_on fst cs); [exact Hnd | apply winners_in, Hd | apply winners_in, Hc]. }
  destruct (best_order_spec (winners cs) c Hc) as (Bin & Bmin). apply in_map_iff in Bin as (b & Eb & Hb).
  assert (Hbest : hist (snd c) = best_order (winners cs)).
  { destruct (N.eq_dec (fst b) (fst c)) as [E|Nbc]; [rewrite <- (Hinj b Hb E); exact Eb|].
    specialize (Hlt b Hb Nbc). specialize (Bmin c Hc). congruence. }
  assert (Hndw : NoDup (winners cs)) by apply NoDup_filter, (NoDup_map_inv fst), Hnd.
  unfold Overload.resolve, Overload.finalists. cbn zeta.
  rewrite (filter_unique _ (winners cs) c Hndw Hc (proj2 (list_eqb_eq _ _) Hbest)); [reflexivity|].
  intros d Hd Hdc. destruct (list_eqb _ _) eqn:E; [|reflexivity]. apply list_eqb_eq in E.
  assert (Ndc : fst d <> fst c) by (intros F; apply Hdc, Hinj; assumption).
  specialize (Hlt d Hd Ndc). rewrite E, <- Hbest, lex_lt_irrefl in Hlt. discriminate.
Qed.

Definition nle (c a : list cast) : Prop := Forall2 (fun x y => order (fst x) <= order (fst y)) c a.

Lemma nwa_iff c : forall a, List.length c = List.length a -> (not_worse_all c a = true <-> nle c a).
Proof.
  induction c as [|x c IH]; intros [|y a] L; cbn in L; try discriminate; cbn [Overload.not_worse_all].
  - split; [constructor | reflexivity].
  - unfold Overload.worse. rewrite andb_true_iff, negb_true_iff, N.ltb_ge, IH by lia. split.
    + intros [H1 H2]. constructor; assumption.
    + intros H. inversion H; subst. split; assumption.
Qed.

Section Tournament.
Variables (cs : list cand) (n : nat).
Hypothesis Hnd : NoDup (map fst cs).
Hypothesis Hlen : forall d, In d cs -> List.length (snd d) = n.

Lemma wins_nle c a : In c cs -> wins cs c = true -> In a cs -> fst a <> fst c -> nle (snd c) (snd a).
Proof.
  intros Hc Hw Ha Hne. apply nwa_iff; [rewrite (Hlen c Hc), (Hlen a Ha); reflexivity|].
  unfold Overload.wins in Hw. rewrite forallb_forall in Hw. specialize (Hw a Ha).
  apply orb_true_iff in Hw as [H|H]; [apply N.eqb_eq in H; contradiction | exact H].
Qed.

Lemma below_winner_wins c d : In c (winners cs) -> In d cs -> nle (snd d) (snd c) -> In d (winners cs).
Proof.
  intros Hc Hd Hdc. apply winners_in in Hc as [Hc Hw]. apply winners_in. split; [exact Hd|].
  unfold Overload.wins. apply forallb_forall. intros a Ha.
  destruct (N.eqb_spec (fst a) (fst d)) as [|Had]; [reflexivity|]. cbn [orb].
  apply nwa_iff; [rewrite (Hlen a Ha), (Hlen d Hd); reflexivity|].
  destruct (N.eq_dec (fst a) (fst c)) as [Eac|Nac].
  - rewrite (map_injective_on fst cs a c Hnd Ha Hc Eac). exact Hdc.
  - apply (forall2_trans _ _ _ _ _ _ (fun x y z => @N.le_trans _ _ _) Hdc). apply wins_nle; assumption.
Qed.
End Tournament.

Variable nr_exact : nrank.
Hypothesis order_exact_min : forall r, order nr_exact <= order r.
(* three vector ranks, listed worst first *)
Variable vorder : vrank -> N.            (* 0 = same dimension, 1 = expand, 2 = contract *)
Variables r0 r1 r2 : vrank.
Hypothesis w2b_eq : w2b = [r2; r1; r0].
Hypothesis vorder_vals : vorder r0 = 0 /\ vorder r1 = 1 /\ vorder r2 = 2.
Hypothesis vrank_cases : forall r, r = r0 \/ r = r1 \/ r = r2.

Definition cnt (l : list cast) (r : vrank) : nat := List.length (filter (fun x => vrank_eqb (snd x) r) l).

Lemma hist3 l : hist l = [N.of_nat (cnt l r2); N.of_nat (cnt l r1); N.of_nat (cnt l r0)].
Proof. unfold Overload.hist, Overload.count_by_rank. rewrite w2b_eq. reflexivity. Qed.

Lemma cnt_cons x l r : cnt (x :: l) r = ((if vrank_eqb (snd x) r then 1 else 0) + cnt l r)%nat.
Proof. unfold cnt. cbn [filter]. destruct (vrank_eqb (snd x) r); reflexivity. Qed.

Lemma veqb_refl r : vrank_eqb r r = true.
Proof. apply vrank_eqb_spec. reflexivity. Qed.
Lemma veqb_neq a b : vorder a <> vorder b -> vrank_eqb a b = false.
Proof. intros H. destruct (vrank_eqb a b) eqn:E; [apply vrank_eqb_spec in E; subst; contradiction | reflexivity]. Qed.

(* what one cast adds to the counts of the two worse ranks, by its order *)
Lemma rank_counts r :
  let i2 := (if vrank_eqb r r2 then 1 else 0)%nat in
  let i1 := (if vrank_eqb r r1 then 1 else 0)%nat in
  (vorder r = 0 /\ i2 = 0%nat /\ i1 = 0%nat) \/ (vorder r = 1 /\ i2 = 0%nat /\ i1 = 1%nat) \/ (vorder r = 2 /\ i2 = 1%nat /\ i1 = 0%nat).
Proof.
  destruct vorder_vals as (V0 & V1 & V2).
  destruct (vrank_cases r) as [-> | [-> | ->]]; rewrite ?veqb_refl, ?veqb_neq by lia; auto.
Qed.

Definition vle (d c : list cast) : Prop := Forall2 (fun x y => vorder (snd x) <= vorder (snd y)) d c.

(* the histogram counts casts of order 2, then of order 1: lowering orders pointwise lowers the number of casts of
   order 2 and the number of casts of order at least 1, and one of the two strictly when some order drops *)
Lemma vle_counts d c : vle d c ->
  (cnt d r2 <= cnt c r2 /\ cnt d r2 + cnt d r1 <= cnt c r2 + cnt c r1)%nat /\
  ((exists i x y, nth_error d i = Some x /\ nth_error c i = Some y /\ vorder (snd x) < vorder (snd y)) ->
   (cnt d r2 < cnt c r2 \/ cnt d r2 + cnt d r1 < cnt c r2 + cnt c r1)%nat).
Proof.
  induction 1 as [|x y d c Hxy Hf [IH IHs]].
  - split; [cbn; lia|]. intros ([|i] & a & b & Ha & _); discriminate.
  - rewrite !cnt_cons. pose proof (rank_counts (snd x)) as Rx. pose proof (rank_counts (snd y)) as Ry. cbn zeta in Rx, Ry.
    split; [lia|]. intros ([|i] & a & b & Ha & Hb & Hlt); cbn [nth_error] in Ha, Hb.
    + inversion Ha; inversion Hb; subst. lia.
    + assert (Hs := IHs (ex_intro _ i (ex_intro _ a (ex_intro _ b (conj Ha (conj Hb Hlt)))))). lia.
Qed.

Lemma vle_lowers_hist d c : vle d c ->
  (exists i x y, nth_error d i = Some x /\ nth_error c i = Some y /\ vorder (snd x) < vorder (snd y)) ->
  lex_lt (hist d) (hist c) = true.
Proof.
  intros Hle Hst. destruct (vle_counts d c Hle) as [[C1 C2] Hs]. specialize (Hs Hst).
  rewrite !hist3, lex_lt_cons, lex_lt_cons. lia.
Qed.

Definition cle (x y : cast) : Prop :=
  order (fst x) < order (fst y) \/ (order (fst x) = order (fst y) /\ vorder (snd x) <= vorder (snd y)).
Definition clt (x y : cast) : Prop :=
  order (fst x) < order (fst y) \/ (order (fst x) = order (fst y) /\ vorder (snd x) < vorder (snd y)).
(* d converts no argument worse than c and at least one argument better *)
Definition dominates (d c : list cast) : Prop :=
  Forall2 cle d c /\ exists i x y, nth_error d i = Some x /\ nth_error c i = Some y /\ clt x y.

(* the step both theorems share: when d dominates c although c is numerically no worse, the numeric orders agree
   everywhere, so d is at least as good in every vector rank and better in one: its histogram is smaller *)
Lemma dominating_lowers_hist d c : dominates d c -> nle c d -> lex_lt (hist d) (hist c) = true.
Proof.
  intros [Hle (j & xj & yj & Hxj & Hyj & Hlt)] Ncd.
  assert (Q : Forall2 (fun x y => order (fst x) = order (fst y) /\ vorder (snd x) <= vorder (snd y)) d c).
  { eapply forall2_impl; [|apply (forall2_and _ _ _ _ Hle (forall2_flip _ _ _ Ncd))].
    unfold cle. intros x y [H H']. lia. }
  apply vle_lowers_hist.
  - eapply forall2_impl; [|exact Q]. intros x y H. apply H.
  - exists j, xj, yj. repeat split; try assumption.
    destruct (forall2_nth _ _ _ _ _ _ Q Hxj Hyj) as [E _]. unfold clt in Hlt. lia.
Qed.

Theorem finalist_not_dominated cs n c :
  NoDup (map fst cs) -> (forall d, In d cs -> List.length (snd d) = n) ->
  In c (finalists cs) -> forall d, In d cs -> ~ dominates (snd d) (snd c).
Proof.
  intros Hnd Hlen Hc d Hd Hdom. apply finalists_in in Hc as [Hw Hbest].
  assert (Hw' := Hw). apply winners_in in Hw' as [Hcin Hwins].
  destruct (N.eq_dec (fst d) (fst c)) as [E|Hne].
  - rewrite (map_injective_on fst cs d c Hnd Hd Hcin E) in Hdom.
    destruct Hdom as [_ (j & xj & yj & Hxj & Hyj & Hlt)]. rewrite Hxj in Hyj. inversion Hyj; subst.
    unfold clt in Hlt. lia.
  - (* d survives the numeric tournament as well, with a histogram below the minimum *)
    assert (Ndc : nle (snd d) (snd c)).
    { eapply forall2_impl; [|exact (proj1 Hdom)]. unfold cle. intros x y H. lia. }
    assert (Hdw := below_winner_wins cs n Hnd Hlen c d Hw Hd Ndc).
    assert (Hlt := dominating_lowers_hist _ _ Hdom (wins_nle cs n Hlen c d Hcin Hwins Hd Hne)).
    destruct (best_order_spec (winners cs) c Hw) as (_ & Bmin).
    specialize (Bmin d Hdw). rewrite <- Hbest in Bmin. congruence.
Qed.

Definition exact_cast (x : cast) : Prop := order (fst x) = order nr_exact /\ snd x = r0.

Lemma nwa_exact c : Forall exact_cast c -> forall a, not_worse_all c a = true.
Proof.
  induction 1 as [|x c Hx Hf IH]; intros [|y a]; cbn [Overload.not_worse_all]; try reflexivity.
  rewrite IH, andb_true_r. unfold Overload.worse. destruct Hx as [Hx _].
  apply negb_true_iff, N.ltb_ge. rewrite Hx. apply order_exact_min.
Qed.

Lemma exact_cle x y : exact_cast x -> cle x y.
Proof.
  destruct vorder_vals as (V0 & _). unfold cle. intros [Hx Hs]. rewrite Hx, Hs, V0.
  assert (H := order_exact_min (fst y)). lia.
Qed.

Lemma exact_clt x y : exact_cast x -> ~ exact_cast y -> clt x y.
Proof.
  destruct vorder_vals as (V0 & V1 & V2). unfold clt. intros [Hx Hs] Hy. rewrite Hx, Hs, V0.
  assert (H := order_exact_min (fst y)).
  destruct (N.eq_dec (order (fst y)) (order nr_exact)) as [E|]; [right | left; lia].
  split; [lia|]. destruct (vrank_cases (snd y)) as [Z | [-> | ->]]; [|lia|lia]. exfalso. apply Hy. split; assumption.
Qed.

Lemma exact_dominates c : Forall exact_cast c -> forall d,
  List.length c = List.length d -> Exists (fun x => ~ exact_cast x) d -> dominates c d.
Proof.
  intros Hc d L E. split.
  - clear E. revert d L. induction Hc as [|x c Hx Hc IH]; intros [|y d] L; try discriminate; constructor.
    + apply exact_cle, Hx.
    + apply IH. cbn in L. lia.
  - revert d L E. induction Hc as [|x c Hx Hc IH]; intros [|y d] L E; try discriminate; [inversion E|].
    inversion E as [? ? Hy|? ? Ht]; subst.
    + exists 0%nat, x, y. repeat split. apply exact_clt; assumption.
    + destruct (IH d ltac:(cbn in L; lia) Ht) as (i & a & b & Ha & Hb & Hab). exists (S i), a, b. auto.
Qed.

Theorem exact_wins cs n c :
  NoDup (map fst cs) -> (forall d, In d cs -> List.length (snd d) = n) -> In c cs ->
  Forall exact_cast (snd c) ->
  (forall d, In d cs -> fst d <> fst c -> Exists (fun x => ~ exact_cast x) (snd d)) ->
  resolve cs = Selected (fst c).
Proof.
  intros Hnd Hlen Hc Hex Hothers. apply unique_least_selected; [exact Hnd | |].
  - apply winners_in. split; [exact Hc|]. unfold Overload.wins. apply forallb_forall. intros a _.
    rewrite (nwa_exact _ Hex). apply orb_true_r.
  - intros d Hdw Hne. apply winners_in in Hdw as [Hd Hwd]. apply dominating_lowers_hist.
    + apply exact_dominates; [exact Hex | rewrite (Hlen c Hc), (Hlen d Hd); reflexivity | apply Hothers; assumption].
    + apply (wins_nle cs n Hlen d c Hd Hwd Hc). congruence.
Qed.

End Proofs.
