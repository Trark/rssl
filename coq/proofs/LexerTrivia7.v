(* LexerTrivia7.v — trivia at any number of token boundaries at once.  A text is described as a list of elements: tokens,
   each read the same in front of every character of a set `ok` that holds the character actually following it, and
   trivia pieces.  Behind a token whose `ok` holds every character a trivia piece can begin with (`insertable`), any
   run of pieces may be inserted - at as many tokens as one likes - and the tokens that are not whitespace stay the
   same, whatever follows the described text.  Words, operators and strings, and `<` / `>` in front of a word or a
   blank, as elements.  On `stable` and the angle brackets of LexerTrivia3; LexerTrivia4 takes `tstart`, stable_trivia and
   solid_follows_tstart from here. *)
From Coq Require Import List NArith Bool String Ascii Arith Lia.
From RV Require Import Lexer LexerProofs LexerTrivia LexerTrivia2 LexerTrivia3.
Import ListNotations.
Local Open Scope string_scope.

Inductive elem :=
| ETok (c : ascii) (a' : string) (t : tok) (insertable : bool)
| ETriv (x : string).

Definition etxt (e : elem) : string := match e with ETok c a' _ _ => String c a' | ETriv x => x end.
Fixpoint txt (es : list elem) : string := match es with [] => "" | e :: r => etxt e ++ txt r end.

(* the characters a trivia piece can begin with *)
Definition tstart (w : ascii) : Prop := blank w \/ w = "\"%char \/ w = "/"%char.

Lemma piece_head x : Piece x -> exists w x', x = String w x' /\ tstart w.
Proof. destruct 1 as [w Bw| |body Hb|text Ht]; eexists; eexists; (split; [reflexivity|]); unfold tstart; auto. Qed.

Lemma trivia_head x : Trivia x -> exists w x', x = String w x' /\ tstart w.
Proof.
  destruct 1 as [x P|x y P Ty]; [apply piece_head, P|].
  destruct (piece_head x P) as (w & x' & -> & Hw). exists w, (x' ++ y). split; [reflexivity|exact Hw].
Qed.

Section Trivia7.
Variable keywords : list (string * string).
Variable reserved_words : list string.
Variable symbols : list (N * string * option string * option string).
Variable int_suffixes : list (list (list N) * string).
Variable float_suffixes : list (list N * string).
Variable float_is_zero : string -> bool.
Variable utf8_ok : string -> bool.

Notation tok_at := (tok_at keywords reserved_words symbols int_suffixes float_suffixes float_is_zero utf8_ok).
Notation lex_file := (lex_file keywords reserved_words symbols int_suffixes float_suffixes float_is_zero utf8_ok).
Notation Frame := (Frame keywords reserved_words symbols int_suffixes float_suffixes float_is_zero utf8_ok).
Notation stable := (stable keywords reserved_words symbols int_suffixes float_suffixes float_is_zero utf8_ok).
Notation solid_check := (solid_check keywords reserved_words symbols int_suffixes float_suffixes float_is_zero utf8_ok).

Lemma stable_trivia ok a t x : stable ok a t -> (forall w, tstart w -> ok w) -> Trivia x ->
  forall b, tok_at false (a ++ x ++ b) = LOk t (slen a).
Proof. intros St H Tx b. destruct (trivia_head x Tx) as (w & x' & -> & Hw). exact (St w (x' ++ b) (H w Hw)). Qed.

Lemma solid_follows_tstart c r t n : tok_at false (String c r) = LOk t n -> solid t = true -> Ascii.eqb c "/" = false ->
  forall w, tstart w -> follows_tok c w.
Proof. intros T St Cs w Hw. apply (solid_follows c r t n w T St). destruct Hw as [B|[E|E]]; auto. Qed.

Inductive Good (nxt : ascii) : list elem -> Prop :=
| GNil : Good nxt []
| GTok c a' t ins (ok : ascii -> Prop) es :
    (forall w r, ok w -> tok_at false (String c a' ++ String w r) = LOk t (slen (String c a'))) ->
    ok (next_char nxt (txt es)) ->
    (ins = true -> forall w, tstart w -> ok w) ->
    Good nxt es -> Good nxt (ETok c a' t ins :: es)
| GTriv x es : Piece x -> Good nxt es -> Good nxt (ETriv x :: es).

Inductive Ins : list elem -> list elem -> Prop :=
| INil : Ins [] []
| ITriv x es es' : Ins es es' -> Ins (ETriv x :: es) (ETriv x :: es')
| ITok c a' t ins es es' xs :
    Forall Piece xs -> (ins = true \/ xs = []) -> Ins es es' ->
    Ins (ETok c a' t ins :: es) (ETok c a' t ins :: (map ETriv xs ++ es')%list).

Lemma ins_next_char nxt es es' : Good nxt es -> Ins es es' -> next_char nxt (txt es') = next_char nxt (txt es).
Proof.
  intros G I. destruct I as [|x es es' I|c a' t ins es es' xs Fx Hx I]; [reflexivity| |reflexivity].
  cbn [txt etxt]. inversion G as [| |x0 es0 Px G0]; subst.
  destruct (piece_head x Px) as (w & x' & -> & _). reflexivity.
Qed.

Lemma good_pieces nxt xs es : Forall Piece xs -> Good nxt es -> Good nxt (map ETriv xs ++ es)%list.
Proof. induction 1 as [|x xs Px Fx IH]; intros G; [exact G|]. cbn [map app]. apply GTriv; [exact Px | apply IH; exact G]. Qed.

Lemma frame_pieces B xs es tq fl : Forall Piece xs -> Frame B (txt es) tq fl ->
  exists ws, strip ws = [] /\ Frame B (txt (map ETriv xs ++ es)) (ws ++ tq) fl.
Proof.
  induction 1 as [|x xs Px Fx IH]; intros F; [exists []; split; [reflexivity | exact F]|].
  destruct (IH F) as (ws & Sw & Fw).
  destruct (frame_piece keywords reserved_words symbols int_suffixes float_suffixes float_is_zero utf8_ok x Px) as (ws1 & fl1 & S1 & F1).
  exists (ws1 ++ ws)%list. split; [rewrite strip_app, S1, Sw; reflexivity|].
  cbn [map app txt etxt]. rewrite <- app_assoc. apply (frame_app _ _ _ _ _ _ _ _ F1 Fw). trivial.
Qed.

Lemma strip_cons_ws ws l : Forall (fun t => is_ws t = true) ws -> strip (ws ++ l) = strip l.
Proof.
  induction 1 as [|t ws Ht F IH]; [reflexivity|]. unfold strip in *. cbn [app filter]. rewrite Ht. cbn [negb]. exact IH.
Qed.

Theorem ins_frames nxt es es' : Good nxt es -> Ins es es' ->
  Good nxt es' /\
  exists tp tp', strip tp' = strip tp /\ Frame (starts nxt) (txt es) tp true /\ Frame (starts nxt) (txt es') tp' true.
Proof.
  intros G I. induction I as [|x es es' I IH|c a' t ins es es' xs Fx Hx I IH].
  - split; [constructor|]. exists [], []. split; [reflexivity|]. split; apply frame_nil.
  - inversion G as [| |x0 es0 Px G0]; subst.
    destruct (IH G0) as (G' & tp & tp' & Hs & F & F').
    split; [apply GTriv; assumption|].
    destruct (frame_piece keywords reserved_words symbols int_suffixes float_suffixes float_is_zero utf8_ok x Px) as (ws & fl & Sw & Fx).
    exists (ws ++ tp)%list, (ws ++ tp')%list. split; [exact (strip_congr ws _ _ Hs)|].
    cbn [txt etxt]. split; apply (frame_app _ _ _ _ _ _ _ _ Fx); trivial.
  - inversion G as [|c0 a0 t0 ins0 ok es0 St Hok Hins G0|]; subst.
    destruct (IH G0) as (G' & tp & tp' & Hs & F & F').
    assert (Hok' : ok (next_char nxt (txt (map ETriv xs ++ es')%list))).
    { destruct Fx as [|x xs' Px Fx'].
      - cbn [map app]. rewrite (ins_next_char nxt es es' G0 I). exact Hok.
      - destruct Hx as [Hi|Hx]; [|discriminate].
        destruct (piece_head x Px) as (w & x' & -> & Hw). exact (Hins Hi w Hw). }
    split; [apply (GTok nxt c a' t ins ok); [exact St|exact Hok'|exact Hins|apply good_pieces; assumption]|].
    destruct (frame_pieces _ xs es' tp' true Fx F') as (ws & Sw & Fws).
    exists (t :: tp), (t :: ws ++ tp')%list. split.
    { apply (strip_congr [t]). rewrite strip_app, Sw. exact Hs. }
    cbn [txt etxt].
    split; apply frame_cons; [exact (stable_next ok _ t nxt _ St Hok) | exact F | exact (stable_next ok _ t nxt _ St Hok') | exact Fws].
Qed.

Theorem trivia_at_many_boundaries nxt r0 es es' spans :
  Good nxt es -> Ins es es' ->
  lex_file (txt es ++ String nxt r0) = SOk spans ->
  exists spans', lex_file (txt es' ++ String nxt r0) = SOk spans' /\ strip (toks spans') = strip (toks spans).
Proof.
  intros G I. destruct (ins_frames nxt es es' G I) as (_ & tp & tp' & Hs & F & F').
  apply lex_file_lift. intros l L. apply F in L as (tr & -> & L); [|eexists; reflexivity].
  exists (tp' ++ tr)%list. split; [apply F'; [eexists; reflexivity | eauto] | rewrite !strip_app, Hs; reflexivity].
Qed.

Lemma good_solid nxt c a' t ins es b :
  tok_at false (String c a' ++ b) = LOk t (slen (String c a')) -> solid t = true ->
  follows_tok c (next_char nxt (txt es)) ->
  (ins = true -> Ascii.eqb c "/" = false) ->
  Good nxt es -> Good nxt (ETok c a' t ins :: es).
Proof.
  intros T St F Hi G. apply (GTok nxt c a' t ins (follows_tok c) es); [|exact F| |exact G].
  - exact (solid_token_ignores_next c a' b t T St).
  - intros Hins. exact (solid_follows_tstart c _ t _ T St (Hi Hins)).
Qed.

Lemma good_solid_closed nxt c a' t ins es :
  solid_check c a' (next_char nxt (txt es)) = Some t ->
  implb ins (negb (Ascii.eqb c "/")) = true ->
  Good nxt es -> Good nxt (ETok c a' t ins :: es).
Proof.
  intros E Hi. destruct (solid_check_ok _ _ _ _ E) as (T & St & F). apply (good_solid nxt c a' t ins es _ T St F).
  intros ->. apply negb_true_iff, Hi.
Qed.

(* not insertable: trivia directly behind `<` / `>` is the exception the property names *)
Lemma good_angle_word nxt c es : c = "<"%char \/ c = ">"%char ->
  is_alpha_ (next_char nxt (txt es)) = true -> Good nxt es -> Good nxt (ETok c "" (angle c true) false :: es).
Proof.
  intros Hc Ha G. apply (GTok nxt c "" _ false (fun w => is_alpha_ w = true) es); [|exact Ha|discriminate|exact G].
  apply (angle_stable c _ true Hc). intros w r. apply word_starts_token.
Qed.

Lemma good_angle_blank nxt c es : c = "<"%char \/ c = ">"%char ->
  blank (next_char nxt (txt es)) -> Good nxt es -> Good nxt (ETok c "" (angle c false) false :: es).
Proof.
  intros Hc Hb G. apply (GTok nxt c "" _ false blank es); [|exact Hb|discriminate|exact G].
  apply (angle_stable c _ false Hc). intros w r. apply blank_starts_no_token.
Qed.

End Trivia7.

Arguments stable_trivia [keywords reserved_words symbols int_suffixes float_suffixes float_is_zero utf8_ok].
Arguments solid_follows_tstart [keywords reserved_words symbols int_suffixes float_suffixes float_is_zero utf8_ok].
Arguments good_solid [keywords reserved_words symbols int_suffixes float_suffixes float_is_zero utf8_ok].
Arguments good_solid_closed [keywords reserved_words symbols int_suffixes float_suffixes float_is_zero utf8_ok].
Arguments good_angle_word [keywords reserved_words symbols int_suffixes float_suffixes float_is_zero utf8_ok].
Arguments good_angle_blank [keywords reserved_words symbols int_suffixes float_suffixes float_is_zero utf8_ok].
