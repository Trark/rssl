(* EvaluatorProofs.v — the table-driven evaluator equals the reference evaluator, for any arm
   tables that pass the (decidable) agreement checks. *)
From Coq Require Import List ZArith NArith Bool String Lia.
From RV Require Import EvalSem Evaluator.
Import ListNotations.
Local Open Scope Z_scope.

Definition arith_eqb (a b : arith) : bool :=
  match a, b with
  | OAdd, OAdd | OSub, OSub | OMul, OMul | ODiv, ODiv | ORem, ORem | OShl, OShl | OShr, OShr
  | OAnd, OAnd | OOr, OOr | OXor, OXor | ONeg, ONeg => true
  | _, _ => false
  end.
Definition cmp_eqb (a b : cmp) : bool :=
  match a, b with CLt, CLt | CLe, CLe | CGt, CGt | CGe, CGe => true | _, _ => false end.
Definition is_wrapping (f : flavour) : bool := match f with FWrapping => true | _ => false end.
Definition is_checked (f : flavour) : bool := match f with FChecked | FExact => true | _ => false end.
Definition is_exact (f : flavour) : bool := match f with FExact => true | _ => false end.
Definition is_bare (f : flavour) : bool := match f with FBare => true | _ => false end.
Definition is_lit (k : ckind) : bool := match k with KIntLiteral => true | _ => false end.

Lemma ckind_eqb_eq a b : ckind_eqb a b = true -> a = b.
Proof. destruct a, b; cbn; intros H; try reflexivity; discriminate. Qed.
Lemma arith_eqb_eq a b : arith_eqb a b = true -> a = b.
Proof. destruct a, b; cbn; intros H; try reflexivity; discriminate. Qed.
Lemma cmp_eqb_eq a b : cmp_eqb a b = true -> a = b.
Proof. destruct a, b; cbn; intros H; try reflexivity; discriminate. Qed.

(* which Rust operator flavours have HLSL semantics, for each operand kind and operation *)
Definition good_arith (k : ckind) (f : flavour) (o : arith) (zc : bool) : bool :=
  match o with
  | OAdd | OSub | OMul => negb zc && (if is_lit k then is_checked f else is_wrapping f)
  | ODiv => is_checked f
  | ORem => if is_lit k then is_checked f else zc && (is_wrapping f || (is_bare f && negb (signed k)))
  | OShl => negb zc && (if is_lit k then is_exact f else is_wrapping f)
  | OShr => negb zc && (if is_lit k then is_checked f && negb (is_exact f) else is_wrapping f)
  | OAnd | OOr | OXor => negb zc
  | ONeg => false
  end.

Lemma wrap_id k z : in_range k z = true -> wrap k z = z.
Proof.
  unfold in_range, wrap. intros H. apply andb_true_iff in H as [H1 H2]. apply Z.leb_le in H1, H2.
  assert (B : hi k - lo k + 1 = 2 ^ bits k).
  { unfold hi, lo. destruct (signed k).
    - replace (2 ^ bits k) with (2 * 2 ^ (bits k - 1)); [lia|].
      rewrite <- Z.pow_succ_r by (destruct k; cbn; lia). f_equal. lia.
    - lia. }
  rewrite Z.mod_small by lia. lia.
Qed.

Lemma good_arith_sound k f o zc :
  good_arith k f o zc = true ->
  forall debug a b, rust_arith debug k f o zc a b = ref_arith k o a b.
Proof.
  intros Hg debug a b.
  destruct o, zc; try discriminate Hg; destruct f, k; try discriminate Hg; unfold rust_arith, ref_arith; cbn [andb is_lit bits].
  (* both sides are cascades of the same tests; each test decided, equal closed results are left *)
  all: repeat match goal with |- context [if ?c then _ else _] => destruct c eqn:? end; try reflexivity.
  (* a bare `%` on an unsigned kind would abort where the division overflows: div_overflows is false of such a kind *)
  all: try discriminate.
  (* left is the exact `<<` on literals: the test that passed says that the product is in range, so wrap keeps it *)
  unfold shift. rewrite wrap_id; [reflexivity|].
  match goal with H : (_ && _)%bool = true |- _ => apply andb_true_iff in H; exact (proj2 H) end.
Qed.

(* an arm of the implementation's table against the tag of the reference *)
Definition agree_bin (sp : option ssem) (s : option bsem) (t : btag) : bool :=
  match sp with
  | Some SEq => match t with TEq => true | _ => false end
  | Some SNe => match t with TNe => true | _ => false end
  | None =>
      match s, t with
      | Some (BArith k f o zc), TArith k' o' => ckind_eqb k k' && arith_eqb o o' && good_arith k f o zc
      | Some (BCmp c), TCmp c' => cmp_eqb c c'
      | Some BBoolAnd, TBoolAnd | Some BBoolOr, TBoolOr => true
      | Some BNotConst, TBNone | None, TBNone => true
      | _, _ => false
      end
  end.

Definition agree_un (s : option usem) (t : utag) : bool :=
  match s, t with
  | Some (UStep k f o), TStep k' o' => ckind_eqb k k' && arith_eqb o o' && is_wrapping f
  | Some (UNeg k f), TNeg k' => ckind_eqb k k' && (if is_lit k then is_checked f else is_wrapping f)
  | Some (UNeg k _), TFNeg k' => ckind_eqb k k'
  | Some (UNot k), TLNot => ckind_eqb k KBool
  | Some (UNot k), TBNot k' => ckind_eqb k k'
  | Some UClone, TPlus => true
  | Some UPanic, TUPanic => true
  | Some UNotConst, TUNone | None, TUNone => true
  | _, _ => false
  end.

Definition agree_cast (s : option csem) (t : ctag) (k : ckind) : bool :=
  match s, t with
  | Some (CKeep k'), TToBool => ckind_eqb k KBool
  | Some CNonZero, TToBool => is_int_kind k
  | Some CFNonZero, TToBool => is_f64_kind k || is_f32_kind k
  | Some (CAs k' (Ri32 | Ru32)), TToInt k'' => ckind_eqb k' k'' && negb (ckind_eqb k k')
  | Some (CKeep k'), TToInt k'' => ckind_eqb k' k'' && ckind_eqb k k'
  | Some (CAs k' Rf32), TToF32 k'' => ckind_eqb k' k'' && negb (ckind_eqb k KBool)
  | Some (CKeep k'), TToF32 k'' => ckind_eqb k' k'' && is_f32_kind k
  | Some (CBoolToFloat k'), TToF32 k'' => ckind_eqb k' k'' && ckind_eqb k KBool && is_f32_kind k'
  | Some (CAs k' Rf64), TToF64 k'' => ckind_eqb k' k'' && negb (ckind_eqb k KBool)
  | Some (CKeep k'), TToF64 k'' => ckind_eqb k' k'' && is_f64_kind k
  | Some (CBoolToFloat k'), TToF64 k'' => ckind_eqb k' k'' && ckind_eqb k KBool && is_f64_kind k'
  | Some CNotConst, TCNone | None, TCNone => true
  | _, _ => false
  end.

(* shape consistency of constants: the payload shape matches the kind tag; an enum payload is any such constant that
   is not itself an enum *)
Definition wfc0 (c : const) : Prop :=
  match c with
  | VBool _ => True
  | VInt k _ => is_int_kind k = true
  | VF64 k _ => is_f64_kind k = true
  | VF32 k _ => is_f32_kind k = true
  | VEnum _ _ => False
  end.
Definition wfc (c : const) : Prop := match c with VEnum _ u => wfc0 u | _ => wfc0 c end.
Definition wfr (r : res) : Prop := match r with ROk c => wfc c | _ => True end.
Definition wfr0 (r : res) : Prop := match r with ROk c => wfc0 c | _ => True end.

Definition value_kinds : list ckind :=
  [KBool; KIntLiteral; KInt32; KUInt32; KInt64; KUInt64; KFloatLiteral; KFloat16; KFloat32; KFloat64].

(* which payload a kind carries: for a shape-consistent constant a fact about the kind decides the constructor *)
Inductive shape := SBool | SInt | SF64 | SF32 | SEnum.
Definition shape_of (c : const) : shape :=
  match c with VBool _ => SBool | VInt _ _ => SInt | VF64 _ _ => SF64 | VF32 _ _ => SF32 | VEnum _ _ => SEnum end.
Definition kclass (k : ckind) : option shape :=
  match k with
  | KBool => Some SBool
  | KIntLiteral | KInt32 | KUInt32 | KInt64 | KUInt64 => Some SInt
  | KFloatLiteral | KFloat64 => Some SF64
  | KFloat16 | KFloat32 => Some SF32
  | KString | KEnum => None
  end.

Lemma wfc0_shape c : wfc0 c -> kclass (kind_of c) = Some (shape_of c).
Proof. destruct c as [b|k z|k x|k x|i u]; cbn; try tauto; destruct k; cbn; congruence. Qed.

Lemma int_class k : is_int_kind k = true -> kclass k = Some SInt.
Proof. destruct k; cbn; congruence. Qed.
Lemma f64_class k : is_f64_kind k = true -> kclass k = Some SF64.
Proof. destruct k; cbn; congruence. Qed.
Lemma f32_class k : is_f32_kind k = true -> kclass k = Some SF32.
Proof. destruct k; cbn; congruence. Qed.
Lemma arith_is_int k : arith_int k = true -> is_int_kind k = true.
Proof. destruct k; cbn; congruence. Qed.
Lemma typed_is_arith k : typed_int k = true -> arith_int k = true.
Proof. destruct k; cbn; congruence. Qed.

Lemma class_kind k s : kclass k = Some s -> In k value_kinds.
Proof. destruct k; cbn; intros H; try discriminate; tauto. Qed.

Lemma wfc0_kind c : wfc0 c -> In (kind_of c) value_kinds.
Proof. intros H. exact (class_kind _ _ (wfc0_shape c H)). Qed.

(* the constructor of a shape-consistent constant, from a fact about its kind *)
Lemma bool_const c : wfc0 c -> kind_of c = KBool -> exists b, c = VBool b.
Proof. intros W K. apply wfc0_shape in W. rewrite K in W. destruct c; try discriminate W. eauto. Qed.
Lemma int_const c : wfc0 c -> is_int_kind (kind_of c) = true -> exists k z, c = VInt k z.
Proof. intros W K. apply wfc0_shape in W. rewrite (int_class _ K) in W. destruct c; try discriminate W. eauto. Qed.
Lemma f64_const c : wfc0 c -> is_f64_kind (kind_of c) = true -> exists k x, c = VF64 k x.
Proof. intros W K. apply wfc0_shape in W. rewrite (f64_class _ K) in W. destruct c; try discriminate W. eauto. Qed.
Lemma f32_const c : wfc0 c -> is_f32_kind (kind_of c) = true -> exists k x, c = VF32 k x.
Proof. intros W K. apply wfc0_shape in W. rewrite (f32_class _ K) in W. destruct c; try discriminate W. eauto. Qed.

Section Ops.
Variable debug : bool.

Definition un_tag_ok (t : utag) (k : ckind) : Prop :=
  match t with
  | TStep k' o => k' = k /\ typed_int k = true /\ (o = OAdd \/ o = OSub)
  | TNeg k' => k' = k /\ arith_int k = true
  | TFNeg k' => k' = k /\ (is_f64_kind k || is_f32_kind k)%bool = true
  | TLNot => k = KBool
  | TBNot k' => k' = k /\ arith_int k = true
  | _ => True
  end.

Lemma ref_un_tag_ok op k : un_tag_ok (ref_un_tag op k) k.
Proof.
  unfold ref_un_tag.
  repeat match goal with |- context [if ?c then _ else _] => destruct c eqn:? end; cbn; auto.
  - split; [reflexivity|].
    match goal with H : (_ || _)%bool = true |- _ => apply orb_true_iff in H as [H|H]; apply ckind_eqb_eq in H; subst k; reflexivity end.
  - apply ckind_eqb_eq. assumption.
Qed.

Lemma neg_agree k f z : arith_int k = true -> (if is_lit k then is_checked f else is_wrapping f) = true ->
  rust_neg debug k f z = ref_neg k z.
Proof. destruct k; try discriminate; destruct f; try discriminate; reflexivity. Qed.

Lemma agree_un_sound s t c : wfc0 c -> un_tag_ok t (kind_of c) -> agree_un s t = true ->
  match s with Some s => apply_un debug s c | None => RNotConst end = interp_un t c.
Proof.
  intros Hc I A.
  destruct s as [[k f o|k f|k| | |]|], t as [k' o'|k'|k'| |k'| | |]; try discriminate A; try reflexivity; cbn in A, I.
  - (* TStep *) apply andb_true_iff in A as [A F]. apply andb_true_iff in A as [A1 A2].
    apply ckind_eqb_eq in A1. apply arith_eqb_eq in A2. subst. destruct I as (-> & I & O).
    destruct (int_const c Hc (arith_is_int _ (typed_is_arith _ I))) as (kc & z & ->). destruct f; try discriminate F.
    destruct O as [-> | ->]; reflexivity.
  - (* TNeg *) apply andb_true_iff in A as [A F]. apply ckind_eqb_eq in A. subst. destruct I as (-> & I).
    destruct (int_const c Hc (arith_is_int _ I)) as (kc & z & ->).
    cbn [apply_un interp_un kind_of] in *. rewrite (neg_agree _ _ _ I F). reflexivity.
  - (* TFNeg *) apply ckind_eqb_eq in A. subst. destruct I as (-> & I). apply orb_true_iff in I as [I|I];
      [destruct (f64_const c Hc I) as (kc & x & ->) | destruct (f32_const c Hc I) as (kc & x & ->)]; reflexivity.
  - (* TLNot *) destruct (bool_const c Hc I) as (b & ->). reflexivity.
  - (* TBNot *) apply ckind_eqb_eq in A. subst. destruct I as (-> & I).
    destruct (int_const c Hc (arith_is_int _ I)) as (kc & z & ->). reflexivity.
Qed.

Definition bin_tag_ok (t : btag) (k1 k2 : ckind) : Prop :=
  match t with
  | TArith k _ => k = k1 /\ k1 = k2 /\ arith_int k1 = true
  | TCmp _ => k1 = k2
  | TBoolAnd | TBoolOr => k1 = KBool /\ k2 = KBool
  | _ => True
  end.

Lemma ref_bin_tag_ok op k1 k2 : bin_tag_ok (ref_bin_tag op k1 k2) k1 k2.
Proof.
  unfold ref_bin_tag.
  repeat match goal with |- context [if String.eqb ?x ?y then _ else _] => destruct (String.eqb x y) end; try exact I.
  all: try match goal with |- context [op_arith] => destruct (op_arith op), (op_cmp op); try exact I end.
  (* left are the tags with a condition, each under its test `e1 && e2`, where e1 compares two kinds *)
  all: match goal with |- context [if ?c then _ else _] => destruct c eqn:E end; try exact I.
  all: apply andb_true_iff in E as [E1 E2].
  all: apply ckind_eqb_eq in E1; try apply ckind_eqb_eq in E2; cbn; auto.
Qed.

Lemma agree_bin_sound sp s t a b : wfc0 a -> wfc0 b -> bin_tag_ok t (kind_of a) (kind_of b) ->
  agree_bin sp s t = true ->
  match sp with
  | Some SEq => ROk (VBool (const_eqb a b))
  | Some SNe => ROk (VBool (negb (const_eqb a b)))
  | None => match s with Some s => apply_bin debug s a b | None => RNotConst end
  end = interp_bin t a b.
Proof.
  intros Ha Hb I A.
  destruct sp as [[|]|]; [destruct t; try discriminate A; reflexivity ..|].
  destruct s as [[k f o zc|c| | |]|], t as [k' o'|c'| | | | |]; try discriminate A; try reflexivity; cbn in A, I.
  - (* TArith *) apply andb_true_iff in A as [A G]. apply andb_true_iff in A as [A1 A2].
    apply ckind_eqb_eq in A1. apply arith_eqb_eq in A2. subst. destruct I as (-> & E & I).
    pose proof (arith_is_int _ I) as K. destruct (int_const a Ha K) as (ka & x & ->).
    rewrite E in K. destruct (int_const b Hb K) as (kb & y & ->).
    cbn [apply_bin interp_bin kind_of] in *. rewrite (good_arith_sound _ _ _ _ G). reflexivity.
  - (* TCmp: the same kind, so the same shape *) apply cmp_eqb_eq in A. subst.
    pose proof (wfc0_shape b Hb) as Sb. rewrite <- I, (wfc0_shape a Ha) in Sb.
    destruct a, b; try discriminate Sb; try contradiction; reflexivity.
  - (* TBoolAnd *) destruct (bool_const a Ha (proj1 I)) as (x & ->), (bool_const b Hb (proj2 I)) as (y & ->). reflexivity.
  - (* TBoolOr *) destruct (bool_const a Ha (proj1 I)) as (x & ->), (bool_const b Hb (proj2 I)) as (y & ->). reflexivity.
Qed.

Definition cast_tag_ok (t : ctag) : Prop :=
  match t with
  | TToInt k => typed_int k = true
  | TToF32 k => is_f32_kind k = true
  | TToF64 k => is_f64_kind k = true
  | _ => True
  end.

Lemma ref_cast_tag_ok t k : cast_tag_ok (ref_cast_tag t k).
Proof.
  unfold ref_cast_tag.
  repeat match goal with |- context [if ?c then _ else _] => destruct c end; exact I || reflexivity.
Qed.

Lemma ckind_eqb_refl k : ckind_eqb k k = true.
Proof. destruct k; reflexivity. Qed.

Lemma agree_cast_sound s t c : wfc0 c -> cast_tag_ok t -> agree_cast s t (kind_of c) = true ->
  match s with Some s => apply_cast s c | None => RNotConst end = interp_cast t c.
Proof.
  intros Hc I A.
  assert (to_int : forall k r, negb (ckind_eqb (kind_of c) k) = true ->
            (r = Ri32 \/ r = Ru32) -> apply_cast (CAs k r) c = interp_cast (TToInt k) c).
  { intros k r N R. destruct c; try contradiction; destruct R as [-> | ->]; try reflexivity;
      cbn in N |- *; destruct (ckind_eqb k k0) eqn:E; try reflexivity;
      apply ckind_eqb_eq in E; subst; rewrite ckind_eqb_refl in N; discriminate. }
  destruct s as [[k1|k1 [| | |]| | |k1| |]|], t as [|k|k|k|]; try discriminate A; try reflexivity; cbn in A, I.
  (* E: the kind of the arm is the kind of the tag; Ec, Nc, Fc: the kind of c is this kind, is not, is a float kind;
     F: a condition on the target *)
  - (* CKeep, to bool *) apply ckind_eqb_eq in A. destruct (bool_const c Hc A) as (b & ->). reflexivity.
  - (* CKeep, to int *) apply andb_true_iff in A as [E Ec]. apply ckind_eqb_eq in E, Ec. subst.
    destruct (int_const c Hc (arith_is_int _ (typed_is_arith _ I))) as (kc & z & ->).
    cbn. rewrite ckind_eqb_refl. reflexivity.
  - (* CKeep, to f32 *) apply andb_true_iff in A as [E Fc]. apply ckind_eqb_eq in E. subst.
    destruct (f32_const c Hc Fc) as (kc & x & ->). reflexivity.
  - (* CKeep, to f64 *) apply andb_true_iff in A as [E Fc]. apply ckind_eqb_eq in E. subst.
    destruct (f64_const c Hc Fc) as (kc & x & ->). reflexivity.
  - (* as i32, to int *) apply andb_true_iff in A as [E Nc]. apply ckind_eqb_eq in E. subst. apply to_int; auto.
  - (* as u32, to int *) apply andb_true_iff in A as [E Nc]. apply ckind_eqb_eq in E. subst. apply to_int; auto.
  - (* as f32, to f32 *) apply andb_true_iff in A as [E Nc]. apply ckind_eqb_eq in E. subst.
    destruct c; try discriminate Nc; try contradiction; reflexivity.
  - (* as f64, to f64 *) apply andb_true_iff in A as [E Nc]. apply ckind_eqb_eq in E. subst.
    destruct c; try discriminate Nc; try contradiction; reflexivity.
  - (* CNonZero, to bool *) destruct (int_const c Hc A) as (kc & z & ->). reflexivity.
  - (* CFNonZero, to bool *)
    apply orb_true_iff in A as [A|A];
      [destruct (f64_const c Hc A) as (kc & x & ->) | destruct (f32_const c Hc A) as (kc & x & ->)]; reflexivity.
  - (* CBoolToFloat, to f32 *) apply andb_true_iff in A as [A F]. apply andb_true_iff in A as [E Ec].
    apply ckind_eqb_eq in E, Ec. subst. destruct (bool_const c Hc Ec) as (b & ->).
    destruct k; try discriminate F; reflexivity.
  - (* CBoolToFloat, to f64 *) apply andb_true_iff in A as [A F]. apply andb_true_iff in A as [E Ec].
    apply ckind_eqb_eq in E, Ec. subst. destruct (bool_const c Hc Ec) as (b & ->).
    destruct k; try discriminate F; reflexivity.
Qed.
End Ops.

Lemma wfc0_wfc c : wfc0 c -> wfc c.
Proof. destruct c; cbn; tauto. Qed.
Lemma wfr0_wfr r : wfr0 r -> wfr r.
Proof. destruct r; cbn; [apply wfc0_wfc | tauto | tauto]. Qed.

Lemma zres_to_wf k z : is_int_kind k = true -> wfr0 (zres_to k z).
Proof. destruct z; cbn; auto. Qed.

Lemma interp_un_wf t c : wfc0 c -> un_tag_ok t (kind_of c) -> wfr0 (interp_un t c).
Proof.
  intros Hc I. destruct t, c; cbn [interp_un un_tag_ok kind_of] in I |- *; try exact Logic.I; try exact Hc; try destruct I as (-> & I); try exact Hc.
  apply zres_to_wf. exact Hc.
Qed.

Lemma interp_bin_wf t a b : wfc0 a -> bin_tag_ok t (kind_of a) (kind_of b) -> wfr0 (interp_bin t a b).
Proof.
  intros Ha I. destruct t, a, b; cbn [interp_bin bin_tag_ok kind_of] in I |- *; try exact Logic.I.
  destruct I as (-> & _). apply zres_to_wf. exact Ha.
Qed.

Lemma interp_cast_wf t c : cast_tag_ok t -> wfr0 (interp_cast t c).
Proof.
  intros I. destruct t, c; cbn in I |- *; try exact Logic.I; try exact I; apply arith_is_int, typed_is_arith, I.
Qed.

Definition wf_cty (t : cty) : Prop :=
  match t with TS s => In s known_scalars | TE _ u => In u known_scalars | TOther => True end.

Fixpoint wf_expr (e : expr) : Prop :=
  match e with
  | ELit c => wfc c
  | ECast t e => wf_cty t /\ wf_expr e
  | EUn op e => In op known_ops /\ wf_expr e
  | EBin op l r => In op known_ops /\ wf_expr l /\ wf_expr r
  | ESizeOf _ | ENotConst => True
  end.

Lemma wfc_cases c : wfc c -> (exists i u, c = VEnum i u /\ wfc0 u) \/ wfc0 c.
Proof. destruct c; cbn; intros H; try (right; exact H). left. eauto. Qed.

(* Two operator semantics that agree on shape-consistent constants, for the operators and scalar types of the IR, give
   the same evaluator on well-formed expressions if one of them keeps results shape-consistent. *)
Section Agree.
Variables S R : opsem.
Hypothesis un_eq : forall op c, In op known_ops -> wfc0 c -> sem_un S op c = sem_un R op c.
Hypothesis bin_eq : forall op a b, In op known_ops -> wfc0 a -> wfc0 b -> sem_bin S op a b = sem_bin R op a b.
Hypothesis cast_eq : forall t c, In t known_scalars -> wfc0 c -> sem_cast S t c = sem_cast R t c.
Hypothesis drop_eq : forall op, In op known_ops -> drops_enum S op = drops_enum R op.
Hypothesis un_wf : forall op c, wfc0 c -> wfr0 (sem_un R op c).
Hypothesis bin_wf : forall op a b, wfc0 a -> wfc0 b -> wfr0 (sem_bin R op a b).
Hypothesis cast_wf : forall t c, wfc0 c -> wfr0 (sem_cast R t c).

Lemma rewrap_equal op w r : In op known_ops -> rewrap S op w r = rewrap R op w r.
Proof. intros Ho. unfold rewrap. rewrite (drop_eq op Ho). reflexivity. Qed.

Lemma rewrap_wf op w r : wfr0 r -> wfr (rewrap R op w r).
Proof.
  intros H. unfold rewrap. destruct r as [c| |]; try exact I. destruct w; [|apply wfc0_wfc; exact H].
  destruct (drops_enum R op); [apply wfc0_wfc; exact H | exact H].
Qed.

Theorem eval_agree (e : expr) : wf_expr e -> eval S e = eval R e /\ wfr (eval R e).
Proof.
  induction e as [c|t e IH|op e IH|op l IHl r IHr|z|]; cbn [wf_expr eval]; intros W.
  - split; [reflexivity | exact W].
  - destruct W as [Wt We]. destruct (IH We) as [E Wf]. rewrite E.
    destruct (eval R e) as [v| |]; try (split; [reflexivity | exact I]).
    assert (U : wfc0 (unwrap v)) by (destruct v; exact Wf).
    destruct t as [s|id u|]; cbn [eval_cast wf_cty] in *.
    + rewrite (cast_eq s _ Wt U). split; [reflexivity | apply wfr0_wfr, cast_wf; exact U].
    + rewrite (cast_eq u _ Wt U). assert (P := cast_wf u _ U).
      destruct (sem_cast R u (unwrap v)); split; try reflexivity; exact P.
    + split; [reflexivity | exact I].
  - destruct W as [Wo We]. destruct (IH We) as [E Wf]. rewrite E.
    destruct (eval R e) as [v| |]; try (split; [reflexivity | exact I]).
    cbn [wfr] in Wf. destruct (wfc_cases v Wf) as [(i & u & -> & Hu)|Hv].
    + rewrite (un_eq op u Wo Hu), rewrap_equal by exact Wo.
      split; [reflexivity | apply rewrap_wf, un_wf; exact Hu].
    + destruct v; try contradiction; rewrite (un_eq op _ Wo Hv);
        (split; [reflexivity | apply wfr0_wfr, un_wf; exact Hv]).
  - destruct W as (Wo & Wl & Wr). destruct (IHl Wl) as [El Wfl]. destruct (IHr Wr) as [Er Wfr].
    rewrite El, Er.
    destruct (eval R l) as [a| |]; try (split; [reflexivity | exact I]).
    destruct (eval R r) as [b| |]; try (split; [reflexivity | exact I]).
    cbn [wfr] in Wfl, Wfr.
    destruct (wfc_cases a Wfl) as [(i & x & -> & Hx)|Ha], (wfc_cases b Wfr) as [(j & y & -> & Hy)|Hb].
    + destruct (N.eqb i j); [|split; [reflexivity | exact I]].
      rewrite (bin_eq op x y Wo Hx Hy), rewrap_equal by exact Wo.
      split; [reflexivity | apply rewrap_wf, bin_wf; assumption].
    + destruct b; try contradiction; (split; [reflexivity | exact I]).
    + destruct a; try contradiction; rewrite (bin_eq op _ y Wo Ha Hy), rewrap_equal by exact Wo;
        (split; [reflexivity | apply rewrap_wf, bin_wf; assumption]).
    + destruct a, b; try contradiction; rewrite (bin_eq op _ _ Wo Ha Hb);
        (split; [reflexivity | apply wfr0_wfr, bin_wf; assumption]).
  - destruct z; split; try reflexivity; cbn; auto.
  - split; [reflexivity | exact I].
Qed.
End Agree.

Lemma forallb_eq {A} (f g : A -> bool) l : (forall x, f x = g x) -> forallb f l = forallb g l.
Proof. intros E. induction l as [|x l IH]; [reflexivity|]. cbn. rewrite E, IH. reflexivity. Qed.

Lemma find_filter {A} (f p q : A -> bool) l : (forall x, f x = p x && q x) -> find f l = find q (filter p l).
Proof.
  intros E. induction l as [|x l IH]; [reflexivity|]. cbn. rewrite E.
  destruct (p x); cbn; [destruct (q x); [reflexivity|]|]; exact IH.
Qed.

Section Main.
Variable unary_table : list (string * option ckind * usem).
Variable binary_table : list (string * option ckind * option ckind * bsem).
Variable special_table : list (string * ssem).
Variable enum_drop : list string.
Variable cast_table : list (string * option ckind * csem).

Notation find_un := (find_un unary_table).
Notation find_bin := (find_bin binary_table).
Notation find_cast := (find_cast cast_table).
Notation find_special := (find_special special_table).
Notation impl_sem := (impl_sem unary_table binary_table special_table enum_drop cast_table).

Definition tables_agree : bool :=
  forallb (fun op =>
    forallb (fun k => agree_un (find_un op k) (ref_un_tag op k)) value_kinds &&
    forallb (fun k1 => forallb (fun k2 =>
      agree_bin (find_special op) (find_bin op k1 k2) (ref_bin_tag op k1 k2)) value_kinds) value_kinds &&
    Bool.eqb (existsb (String.eqb op) enum_drop) (drops_enum ref_sem op)) known_ops &&
  forallb (fun t => forallb (fun k => agree_cast (find_cast t k) (ref_cast_tag t k) k) value_kinds) known_scalars.

Lemma tables_agree_spec : tables_agree = true ->
  (forall op, In op known_ops ->
     (forall k, In k value_kinds -> agree_un (find_un op k) (ref_un_tag op k) = true) /\
     (forall k1 k2, In k1 value_kinds -> In k2 value_kinds ->
        agree_bin (find_special op) (find_bin op k1 k2) (ref_bin_tag op k1 k2) = true) /\
     existsb (String.eqb op) enum_drop = drops_enum ref_sem op) /\
  (forall t k, In t known_scalars -> In k value_kinds -> agree_cast (find_cast t k) (ref_cast_tag t k) k = true).
Proof.
  unfold tables_agree. rewrite andb_true_iff, !forallb_forall. intros [Ho Ht]. split.
  - intros op Hop. specialize (Ho op Hop). rewrite !andb_true_iff, !forallb_forall in Ho.
    destruct Ho as [[Hu Hb] Hd]. repeat split; [exact Hu | | apply Bool.eqb_prop, Hd].
    intros k1 k2 H1 H2. specialize (Hb k1 H1). rewrite forallb_forall in Hb. exact (Hb k2 H2).
  - intros t k Hin Hk. specialize (Ht t Hin). rewrite forallb_forall in Ht. exact (Ht k Hk).
Qed.

(* ref_bin_tag with its tests on the operator's name as arguments *)
Definition bin_tag_of (eq ne band bor : bool) (oa : option arith) (oc : option cmp) (k1 k2 : ckind) : btag :=
  if eq then TEq else if ne then TNe
  else if band then (if ckind_eqb k1 KBool && ckind_eqb k2 KBool then TBoolAnd else TBNone)
  else if bor then (if ckind_eqb k1 KBool && ckind_eqb k2 KBool then TBoolOr else TBNone)
  else match oa, oc with
       | Some o, _ => if ckind_eqb k1 k2 && arith_int k1 then TArith k1 o else TBNone
       | None, Some c => if ckind_eqb k1 k2 && cmp_kind k1 then TCmp c else TBNone
       | None, None => TBNone
       end.

(* The same obligations with each operator's rows looked up once, and its name tested once: a first match in a table
   is a first match among the rows of that name.  This is the form to evaluate; the kernel's reduction shares [ut],
   [bt], [sp] and the arguments of [rt], where ref_bin_tag would compare strings for each of the hundred pairs. *)
Definition tables_agree_by_rows : bool :=
  forallb (fun op =>
    let ut := filter (fun '(o, _, _) => String.eqb o op) unary_table in
    let bt := filter (fun '(o, _, _, _) => String.eqb o op) binary_table in
    let sp := find_special op in
    let rt := bin_tag_of (String.eqb op "Equality") (String.eqb op "Inequality") (String.eqb op "BooleanAnd")
                (String.eqb op "BooleanOr") (op_arith op) (op_cmp op) in
    forallb (fun k => agree_un (option_map snd (find (fun '(_, p, _) => kmatch p k) ut)) (ref_un_tag op k)) value_kinds &&
    forallb (fun k1 => forallb (fun k2 =>
      agree_bin sp (option_map snd (find (fun '(_, p1, p2, _) => kmatch p1 k1 && kmatch p2 k2) bt))
                (rt k1 k2)) value_kinds) value_kinds &&
    Bool.eqb (existsb (String.eqb op) enum_drop) (drops_enum ref_sem op)) known_ops &&
  forallb (fun t => forallb (fun k => agree_cast (find_cast t k) (ref_cast_tag t k) k) value_kinds) known_scalars.

Lemma tables_agree_rows : tables_agree = tables_agree_by_rows.
Proof.
  unfold tables_agree, tables_agree_by_rows. f_equal. apply forallb_eq. intros op. cbv zeta.
  unfold Evaluator.find_un, Evaluator.find_bin. do 2 f_equal; apply forallb_eq.
  - intros k. do 2 f_equal. apply find_filter. intros [[o p] s]. reflexivity.
  - (* [rt k1 k2] is [ref_bin_tag op k1 k2] by conversion *)
    intros k1. apply forallb_eq. intros k2. do 2 f_equal. apply find_filter. intros [[[o p1] p2] s].
    symmetry. apply andb_assoc.
Qed.

Hypothesis Hagree : tables_agree = true.
Variable debug : bool.

Theorem impl_eval_is_ref_eval (e : expr) :
  wf_expr e -> eval (impl_sem debug) e = eval ref_sem e /\ wfr (eval ref_sem e).
Proof.
  destruct (tables_agree_spec Hagree) as [Ho Ht].
  apply eval_agree.
  - intros op c Hop Hc. apply agree_un_sound; [exact Hc | apply ref_un_tag_ok | apply Ho; [exact Hop | apply wfc0_kind, Hc]].
  - intros op a b Hop Ha Hb.
    apply agree_bin_sound; [exact Ha | exact Hb | apply ref_bin_tag_ok | apply Ho; [exact Hop | apply wfc0_kind, Ha | apply wfc0_kind, Hb]].
  - intros t c Hin Hc. apply agree_cast_sound; [exact Hc | apply ref_cast_tag_ok | apply Ht; [exact Hin | apply wfc0_kind, Hc]].
  - intros op Hop. apply Ho, Hop.
  - intros op c Hc. apply interp_un_wf; [exact Hc | apply ref_un_tag_ok].
  - intros op a b Ha _. apply interp_bin_wf; [exact Ha | apply ref_bin_tag_ok].
  - intros t c _. apply interp_cast_wf, ref_cast_tag_ok.
Qed.

End Main.

Lemma ref_arith_no_panic k o a b : ref_arith k o a b <> ZPanic.
Proof.
  unfold ref_arith. destruct k, o;
    repeat match goal with |- context [if ?c then _ else _] => destruct c end; discriminate.
Qed.

Lemma good_arith_no_panic k f o zc debug a b :
  good_arith k f o zc = true -> rust_arith debug k f o zc a b <> ZPanic.
Proof. intros Hg. rewrite (good_arith_sound k f o zc Hg). apply ref_arith_no_panic. Qed.
