(* The #if automaton refines C's conditional-group semantics and rejects exactly the unbalanced line sequences, for
   any transition table satisfying switch_ok. *)
From Coq Require Import List NArith Bool String.
From RV Require Import Cond.
Import ListNotations.

Scheme item_mind := Induction for item Sort Prop
  with items_mind := Induction for items Sort Prop
  with tail_mind := Induction for tail Sort Prop.
Combined Scheme item_items_tail_ind from item_mind, items_mind, tail_mind.

Definition switch_ok (switch : cstate -> bool -> cstate) : Prop :=
  (forall b, switch Enabled b = DisabledOuter) /\
  switch DisabledInner true = Enabled /\
  switch DisabledInner false = DisabledInner /\
  (forall b, switch DisabledOuter b = DisabledOuter).

Lemma active_cons s stk : is_active (s :: stk) = cstate_eqb Enabled s && is_active stk.
Proof. reflexivity. Qed.

(* ConditionChain::is_waiting_for_condition: no group of the innermost conditional has been selected so far and the
   conditional itself stands in a selected group; only then can #elif and #else select one *)
Definition waiting (top : cstate) (stk : list cstate) : bool := cstate_eqb DisabledInner top && is_active stk.

Section Step.
Variable switch : cstate -> bool -> cstate.
Variable evalc : env -> list ctok -> bool + cerr.
Notation step := (Cond.step switch evalc).

Lemma step_simple stk e o l :
  is_simple l = true ->
  step (mkP stk e o) l =
  inl (if is_active stk then mkP stk (fst (exec_simple e l)) (o ++ snd (exec_simple e l)) else mkP stk e o).
Proof.
  intros Hs. destruct l; try discriminate Hs; cbn [Cond.step p_stack p_env p_out exec_simple fst snd];
    destruct (is_active stk); cbn [negb]; rewrite ?app_nil_r; reflexivity.
Qed.

Lemma step_else top stk e o : step (mkP (top :: stk) e o) LElse = inl (mkP (switch top true :: stk) e o).
Proof. reflexivity. Qed.
Lemma step_endif top stk e o : step (mkP (top :: stk) e o) LEndif = inl (mkP stk e o).
Proof. reflexivity. Qed.
End Step.

Section Proofs.
Variable switch : cstate -> bool -> cstate.
Hypothesis Hsw : switch_ok switch.
Variable evalb : env -> list ctok -> bool.

(* an evaluator that never fails *)
Definition evalc : env -> list ctok -> bool + cerr := fun e c => inl (evalb e c).

Notation step := (Cond.step switch evalc).
Notation run := (Cond.run switch evalc).
Notation run_file := (Cond.run_file switch evalc).
Notation sem_item := (Cond.sem_item evalb).
Notation sem_items := (Cond.sem_items evalb).
Notation sem_tail := (Cond.sem_tail evalb).

Lemma run_app st l1 l2 :
  run st (l1 ++ l2) = match run st l1 with inl st' => run st' l2 | inr e => inr e end.
Proof.
  revert st; induction l1 as [|l l1 IH]; intros st; cbn [app Cond.run]; [reflexivity|].
  destruct (step st l); [apply IH | reflexivity].
Qed.

Lemma run_cons st l r : run st (l :: r) = match step st l with inl st' => run st' r | inr e => inr e end.
Proof. reflexivity. Qed.

Fixpoint wf_item (i : item) : Prop :=
  match i with
  | ISimple l => is_simple l = true
  | ICond _ body rest => wf_items body /\ wf_tail rest
  end
with wf_items (its : items) : Prop :=
  match its with INil => True | ICons i r => wf_item i /\ wf_items r end
with wf_tail (t : tail) : Prop :=
  match t with
  | TEnd => True
  | TElif _ body rest => wf_items body /\ wf_tail rest
  | TElse body => wf_items body
  end.

(* cbn does not fold the mutual fixpoints of Cond.v back after a step, so the equation is stated *)
Lemma sem_items_cons e i r :
  sem_items e (ICons i r) = let (e1, o1) := sem_item e i in let (e2, o2) := sem_items e1 r in (e2, o1 ++ o2).
Proof. reflexivity. Qed.

Lemma step_guard stk e o g :
  step (mkP stk e o) (guard_line g) =
  inl (mkP ((if is_active stk && guard_true evalb e g then Enabled else DisabledInner) :: stk) e o).
Proof.
  destruct g; cbn [guard_line Cond.step p_stack p_env p_out guard_true evalc]; destruct (is_active stk);
    try reflexivity.
  cbn [negb andb]. destruct (defined e x); reflexivity.
Qed.

Lemma step_elif top stk e o c :
  step (mkP (top :: stk) e o) (LElif c) =
  inl (mkP (switch top (if waiting top stk then evalb e c else false) :: stk) e o).
Proof. cbn [Cond.step p_stack p_env p_out]. fold (waiting top stk). destruct (waiting top stk); reflexivity. Qed.

(* what switch_ok says about a chain: #elif with a true condition, and #else, select a group exactly where the chain
   is waiting, and only #elif with a false condition leaves it waiting *)
Lemma elif_switch top stk b (s := switch top (if waiting top stk then b else false)) :
  is_active (s :: stk) = waiting top stk && b /\ waiting s stk = waiting top stk && negb b.
Proof.
  destruct Hsw as (S0 & S1 & S2 & S3). unfold s, waiting. rewrite active_cons.
  destruct top; cbn [cstate_eqb andb]; rewrite ?S0, ?S3; try (split; reflexivity).
  destruct (is_active stk), b; cbn [andb]; rewrite ?S1, ?S2; split; reflexivity.
Qed.
Lemma active_else top stk : is_active (switch top true :: stk) = waiting top stk.
Proof.
  destruct Hsw as (S0 & S1 & S2 & S3). unfold waiting. rewrite active_cons.
  destruct top; rewrite ?S0, ?S1, ?S3; reflexivity.
Qed.

(* #if, #ifdef, #ifndef act as #elif on a conditional just opened, waiting *)
Lemma guard_switch stk b :
  (if is_active stk && b then Enabled else DisabledInner) =
  switch DisabledInner (if waiting DisabledInner stk then b else false).
Proof.
  destruct Hsw as (_ & S1 & S2 & _). unfold waiting. cbn [cstate_eqb andb].
  destruct (is_active stk), b; cbn [andb]; rewrite ?S1, ?S2; reflexivity.
Qed.

(* the state after a group, or after the rest of a chain: its selected lines performed, or nothing *)
Definition did (stk : list cstate) (e : env) (o : list otok) (sel : bool) (r : env * list otok) : pstate :=
  if sel then mkP stk (fst r) (o ++ snd r) else mkP stk e o.

Lemma did_true stk e o r : did stk e o true r = mkP stk (fst r) (o ++ snd r).
Proof. reflexivity. Qed.
Lemma did_false stk e o r : did stk e o false r = mkP stk e o.
Proof. reflexivity. Qed.

(* the lines of items are performed where the chain is active; the lines of the rest of a conditional select a group
   where the chain is waiting, and leave the conditional *)
Definition performs (ls : list line) (sem : env -> env * list otok) : Prop :=
  forall stk e o k, run (mkP stk e o) (ls ++ k) = run (did stk e o (is_active stk) (sem e)) k.
Definition finishes (ls : list line) (sem : env -> env * list otok) : Prop :=
  forall top stk e o k, run (mkP (top :: stk) e o) (ls ++ k) = run (did stk e o (waiting top stk) (sem e)) k.

(* one clause: after its #if or #elif line (condition b, `top` above stk), its group, then the rest of the conditional *)
Lemma run_clause body sb rest sr top stk b e o k :
  performs body sb -> finishes rest sr ->
  run (mkP (switch top (if waiting top stk then b else false) :: stk) e o) (body ++ rest ++ k) =
  run (did stk e o (waiting top stk) (if b then sb e else sr e)) k.
Proof.
  intros Hb Hr. destruct (elif_switch top stk b) as [Ha Hw]. rewrite Hb, Ha.
  destruct (waiting top stk), b; cbn [andb negb] in Hw |- *; rewrite ?did_true, ?did_false, Hr, Hw, ?did_true, ?did_false; reflexivity.
Qed.

Lemma run_tree :
  (forall i, wf_item i -> performs (flatten_item i) (fun e => sem_item e i)) /\
  (forall its, wf_items its -> performs (flatten_items its) (fun e => sem_items e its)) /\
  (forall t, wf_tail t -> finishes (flatten_tail t) (fun e => sem_tail e t)).
Proof.
  apply item_items_tail_ind.
  - intros l Hl stk e o k. cbn [flatten_item app]. rewrite run_cons, (step_simple _ _ _ _ _ _ Hl). reflexivity.
  - intros g body IHb rest IHr [Wb Wr] stk e o k. cbn [flatten_item app].
    rewrite <- app_assoc, run_cons, step_guard, guard_switch.
    apply (run_clause _ _ _ _ DisabledInner _ _ _ _ _ (IHb Wb) (IHr Wr)).
  - intros _ stk e o k. destruct (is_active stk); rewrite ?did_true, ?did_false; cbn; rewrite ?app_nil_r; reflexivity.
  - intros i IHi r IHr [Wi Wr] stk e o k. cbn [flatten_items].
    rewrite sem_items_cons, <- app_assoc, (IHi Wi).
    destruct (is_active stk) eqn:Ha; rewrite ?did_true, ?did_false, (IHr Wr), Ha, ?did_true, ?did_false; [|reflexivity].
    destruct (sem_item e i) as [e1 o1]. cbn [fst snd]. destruct (sem_items e1 r) as [e2 o2]. cbn [fst snd].
    rewrite app_assoc. reflexivity.
  - intros _ top stk e o k. cbn [flatten_tail app sem_tail]. rewrite run_cons, step_endif.
    destruct (waiting top stk); rewrite ?did_true, ?did_false; cbn [fst snd]; rewrite ?app_nil_r; reflexivity.
  - intros c body IHb rest IHr [Wb Wr] top stk e o k. cbn [flatten_tail app].
    rewrite <- app_assoc, run_cons, step_elif. apply (run_clause _ _ _ _ _ _ _ _ _ _ (IHb Wb) (IHr Wr)).
  - intros body IHb Wb top stk e o k. cbn [flatten_tail app].
    rewrite <- app_assoc, run_cons, step_else, (IHb Wb), active_else. cbn [app].
    destruct (waiting top stk); rewrite ?did_true, ?did_false, run_cons, step_endif; reflexivity.
Qed.

Definition dead (top : cstate) (stk : list cstate) : Prop := top = DisabledOuter \/ is_active stk = false.

Lemma dead_waiting top stk : dead top stk -> waiting top stk = false.
Proof. intros [->|H]; [reflexivity | unfold waiting; rewrite H; apply andb_false_r]. Qed.

Lemma simulation :
  (forall i, wf_item i -> forall stk e o k,
     (is_active stk = true ->
        run (mkP stk e o) (flatten_item i ++ k) = run (mkP stk (fst (sem_item e i)) (o ++ snd (sem_item e i))) k) /\
     (is_active stk = false -> run (mkP stk e o) (flatten_item i ++ k) = run (mkP stk e o) k)) /\
  (forall its, wf_items its -> forall stk e o k,
     (is_active stk = true ->
        run (mkP stk e o) (flatten_items its ++ k) = run (mkP stk (fst (sem_items e its)) (o ++ snd (sem_items e its))) k) /\
     (is_active stk = false -> run (mkP stk e o) (flatten_items its ++ k) = run (mkP stk e o) k)) /\
  (forall t, wf_tail t -> forall stk e o k,
     (is_active stk = true ->
        run (mkP (DisabledInner :: stk) e o) (flatten_tail t ++ k) =
        run (mkP stk (fst (sem_tail e t)) (o ++ snd (sem_tail e t))) k) /\
     (is_active stk = true -> run (mkP (Enabled :: stk) e o) (flatten_tail t ++ k) = run (mkP stk e o) k) /\
     (* a branch was taken earlier, or the whole is in a skipped region *)
     (forall top, dead top stk -> run (mkP (top :: stk) e o) (flatten_tail t ++ k) = run (mkP stk e o) k)).
Proof.
  destruct run_tree as (Hi & Hs & Ht). split; [|split]; intros x W stk e o k.
  - rewrite (Hi x W). split; intros ->; reflexivity.
  - rewrite (Hs x W). split; intros ->; reflexivity.
  - repeat split.
    + intros Ha. rewrite (Ht x W). unfold waiting. cbn [cstate_eqb andb]. rewrite Ha. reflexivity.
    + intros _. apply (Ht x W).
    + intros top Hd. rewrite (Ht x W), (dead_waiting top stk Hd). reflexivity.
Qed.

Theorem chain_refines_groups (its : items) (e0 : env) :
  wf_items its -> run_file e0 (flatten_items its) = inl (sem_items e0 its).
Proof.
  intros W. unfold Cond.run_file.
  pose proof (proj1 (proj2 run_tree) its W [] e0 [] []) as H.
  rewrite app_nil_r in H. rewrite H, did_true. cbn [is_active forallb Cond.run p_stack p_env p_out app].
  destruct (sem_items e0 its); reflexivity.
Qed.

Definition result_err {A} (r : A + perr) : option perr := match r with inl _ => None | inr e => Some e end.

(* the diagnostic a run ends with when it is the whole file *)
Definition closed (r : pstate + perr) : option perr :=
  match r with
  | inr e => Some e
  | inl st => match p_stack st with [] => None | _ => Some ConditionChainNotFinished end
  end.

(* only the height of the chain decides, and every line changes it as scan counts *)
Lemma run_scan ls : forall stk e o, closed (run (mkP stk e o) ls) = scan (List.length stk) ls.
Proof.
  induction ls as [|l ls IH]; intros stk e o; [destruct stk; reflexivity|].
  destruct l; cbn [Cond.run Cond.step scan p_stack p_env p_out evalc];
    try (destruct (negb (is_active stk)); apply IH).
  - destruct stk as [|top stk]; [reflexivity|]. destruct (_ && _); exact (IH (_ :: stk) e o).
  - destruct stk as [|top stk]; [reflexivity|]. exact (IH (_ :: stk) e o).
  - destruct stk as [|top stk]; [reflexivity|]. apply IH.
Qed.

Theorem reject_unbalanced (ls : list line) (e0 : env) :
  result_err (run_file e0 ls) = scan 0 ls.
Proof.
  change (scan 0 ls) with (scan (List.length (@nil cstate)) ls). rewrite <- (run_scan ls [] e0 []).
  unfold Cond.run_file, closed. destruct (run _ ls) as [st|]; [destruct (p_stack st)|]; reflexivity.
Qed.

End Proofs.
