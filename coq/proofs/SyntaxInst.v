(* SyntaxInst.v — the generated tables satisfy the hypotheses of SyntaxProofs.v and SyntaxBridge.v, by computation;
   hence the parser model reads back every tree the printer model prints. *)
From Coq Require Import List NArith Bool String Ascii Lia Arith.
From RV Require Import Syntax GenSyntax SyntaxTables SyntaxProofs SyntaxBridge.
Import ListNotations.
Local Open Scope list_scope.

(* a fact about every operator name of a table: one case per row, or one boolean over the table *)
Lemma names_cases (l : list string) (P : string -> Prop) :
  Forall P l -> forall o, existsb (String.eqb o) l = true -> P o.
Proof.
  intros H o Ho. apply existsb_exists in Ho. destruct Ho as (x & Hin & Heq).
  apply String.eqb_eq in Heq. subst x. rewrite Forall_forall in H. apply H. exact Hin.
Qed.

Lemma names_forallb (l : list string) (f : string -> bool) :
  forallb f l = true -> forall o, existsb (String.eqb o) l = true -> f o = true.
Proof. intros H. apply names_cases, Forall_forall, forallb_forall, H. Qed.

(* `Forall P [x1; ..; xk]` for a closed list: the goals P x1, .., P xk *)
Ltac each_name := repeat (apply Forall_cons); try apply Forall_nil.

Lemma I_prefix : forall o, t_uop o = true -> t_un_post o = false -> t_prefix_of (t_un_sp o) = Some o.
Proof. refine (names_cases un_names _ _). each_name; vm_compute; intros; try discriminate; reflexivity. Qed.

Lemma I_postfix : forall o, t_uop o = true -> t_un_post o = true -> t_postfix_of (t_un_sp o) = Some o.
Proof. refine (names_cases un_names _ _). each_name; vm_compute; intros; try discriminate; reflexivity. Qed.

Lemma bin_at_none s : forallb (fun r : string * N * string * nat * string => let '(_, _, _, _, t) := r in negb (String.eqb t s)) binops = true ->
  forall n, t_bin_at n s = None.
Proof.
  intros H n. unfold t_bin_at.
  destruct (find _ binops) as [[[[[nm p] sp] l] t]|] eqn:Hf; [|reflexivity].
  apply find_some in Hf. destruct Hf as [Hin Hb]. rewrite forallb_forall in H. specialize (H _ Hin). cbn in H.
  apply andb_true_iff in Hb. destruct Hb as [_ Hb]. rewrite Hb in H. discriminate.
Qed.

Lemma I_postfix_inv : forall s o, t_postfix_of s = Some o -> special s = false /\ (forall n, t_bin_at n s = None).
Proof.
  intros s o H. unfold t_postfix_of in H.
  destruct (find _ parser_postfix) as [[nm sp]|] eqn:Hf; [|discriminate].
  apply find_some in Hf. destruct Hf as [Hin Heq]. cbn in Heq. apply String.eqb_eq in Heq. subst sp.
  clear H. revert s nm Hin.
  assert (H : Forall (fun r : string * string => special (snd r) = false /\ forall n, t_bin_at n (snd r) = None) parser_postfix).
  { each_name; (split; [reflexivity | apply bin_at_none; reflexivity]). }
  intros s nm Hin. rewrite Forall_forall in H. exact (H _ Hin).
Qed.

Lemma I_prefix_paren : t_prefix_of "(" = None.
Proof. reflexivity. Qed.

Lemma I_bin : forall o, t_bop o = true ->
  3 <= t_blv o <= 14 /\ t_bin_at (pN (t_blv o)) (t_bin_sp o) = Some o /\ special (t_bin_sp o) = false.
Proof.
  assert (H : forallb (fun o => Nat.leb 3 (t_blv o) && Nat.leb (t_blv o) 14 && negb (special (t_bin_sp o)) &&
                match t_bin_at (pN (t_blv o)) (t_bin_sp o) with Some o' => String.eqb o' o | None => false end) bin_names = true)
    by (vm_compute; reflexivity).
  intros o Ho. apply (names_forallb _ _ H) in Ho. destruct (t_bin_at _ _) as [o'|]; [|rewrite andb_false_r in Ho; discriminate].
  rewrite !andb_true_iff, !Nat.leb_le, negb_true_iff, String.eqb_eq in Ho. destruct Ho as [[[H3 H14] Hs] ->]. auto.
Qed.

Lemma I_bin_inv : forall n s o, t_bin_at n s = Some o -> t_bop o = true /\ t_bin_sp o = s /\ n = pN (t_blv o).
Proof.
  intros n s o H. unfold t_bin_at in H.
  destruct (find _ binops) as [[[[[nm p] sp] l] t]|] eqn:Hf; [|discriminate].
  inversion H; subst nm. clear H. apply find_some in Hf. destruct Hf as [Hin Hb].
  apply andb_true_iff in Hb. destruct Hb as [Hl Ht]. apply Nat.eqb_eq in Hl. apply String.eqb_eq in Ht. subst l t.
  assert (H : forallb (fun r : string * N * string * nat * string => let '(nm, _, _, l, t) := r in
                        t_bop nm && String.eqb (t_bin_sp nm) t && Nat.eqb l (pN (t_blv nm))) binops = true)
    by (vm_compute; reflexivity).
  rewrite forallb_forall in H. specialize (H _ Hin). cbv beta iota in H.
  rewrite !andb_true_iff, String.eqb_eq, Nat.eqb_eq in H. tauto.
Qed.

Lemma I_bin_level : forall o o', t_bop o = true -> t_bop o' = true -> t_bin_sp o = t_bin_sp o' -> t_blv o = t_blv o'.
Proof.
  (* spelling and level of each operator are looked up once, then compared pair by pair *)
  pose (rows := map (fun o => (t_bin_sp o, t_blv o)) bin_names).
  assert (H : forallb (fun r => forallb (fun r' => implb (String.eqb (fst r) (fst r')) (Nat.eqb (snd r) (snd r'))) rows) rows = true)
    by (vm_compute; reflexivity).
  intros o o' Ho Ho' Hsp. unfold t_bop in *. apply existsb_exists in Ho, Ho'.
  destruct Ho as (x & Hx & Ex), Ho' as (y & Hy & Ey). apply String.eqb_eq in Ex, Ey. subst x y.
  rewrite forallb_forall in H. specialize (H _ (in_map _ _ _ Hx)). rewrite forallb_forall in H. specialize (H _ (in_map _ _ _ Hy)).
  cbn [fst snd] in H. rewrite Hsp, String.eqb_refl in H. apply Nat.eqb_eq. exact H.
Qed.

Lemma I_comma : forall o, t_bop o = true -> t_bin_sp o = ","%string -> t_blv o = 14.
Proof. intros o Ho Hs. exact (I_bin_level o "Sequence" Ho eq_refl Hs). Qed.

Lemma I_uop_special : forall o, t_uop o = true -> special (t_un_sp o) = false.
Proof. refine (names_cases un_names _ _). each_name; reflexivity. Qed.

Lemma I_postfix_comma : t_postfix_of "," = None.
Proof. reflexivity. Qed.

Definition P_leaf := misc "Identifier".
Definition P_tern := misc "TernaryConditional".
Definition P_sub := misc "ArraySubscript".
Definition P_mem := misc "Member".
Definition P_call := misc "Call".
Definition P_cast := misc "Cast".

Lemma I_literal_like_identifier : misc "Literal" = misc "Identifier".
Proof. reflexivity. Qed.

Lemma level_okb_ok (l : list N) (lv : N -> nat) p n :
  existsb (N.eqb p) l && Nat.eqb (lv p) n = true -> In p l /\ lv p = n.
Proof.
  intros H. apply andb_true_iff in H. destruct H as [Hin Hl]. split; [|apply Nat.eqb_eq, Hl].
  apply existsb_exists in Hin. destruct Hin as (q & Hq & E). apply N.eqb_eq in E. subst q. exact Hq.
Qed.

Lemma levels_okb_ok (names : list string) (l : list N) (lv : N -> nat) (p : string -> N) (n : string -> nat) :
  forallb (fun o => existsb (N.eqb (p o)) l && Nat.eqb (lv (p o)) (n o)) names = true ->
  forall o, existsb (String.eqb o) names = true -> In (p o) l /\ lv (p o) = n o.
Proof. intros H o Ho. apply level_okb_ok, (names_forallb _ _ H), Ho. Qed.

Lemma B_leaf : In P_leaf t_precs /\ t_lvN P_leaf = 0.
Proof. apply level_okb_ok. vm_compute. reflexivity. Qed.
Lemma B_un : forall o, t_uop o = true -> In (t_un_prec o) t_precs /\ t_lvN (t_un_prec o) = if t_un_post o then 1 else 2.
Proof. apply (levels_okb_ok un_names). vm_compute. reflexivity. Qed.
Lemma B_bin : forall o, t_bop o = true -> In (t_bin_prec o) t_precs /\ t_lvN (t_bin_prec o) = t_blv o.
Proof. apply (levels_okb_ok bin_names). vm_compute. reflexivity. Qed.
Lemma B_tern : In P_tern t_precs /\ t_lvN P_tern = 13.
Proof. apply level_okb_ok. vm_compute. reflexivity. Qed.
Lemma B_sub : In P_sub t_precs /\ t_lvN P_sub = 1.
Proof. apply level_okb_ok. vm_compute. reflexivity. Qed.
Lemma B_mem : In P_mem t_precs /\ t_lvN P_mem = 1.
Proof. apply level_okb_ok. vm_compute. reflexivity. Qed.
Lemma B_call : In P_call t_precs /\ t_lvN P_call = 1.
Proof. apply level_okb_ok. vm_compute. reflexivity. Qed.
Lemma B_cast : In P_cast t_precs /\ t_lvN P_cast = 2.
Proof. apply level_okb_ok. vm_compute. reflexivity. Qed.

Notation CTX := (ctx_ok t_assoc t_lvN t_precs).

Lemma ctx_okb_ok outer s c : ctx_okb outer s c = true -> CTX outer s c.
Proof.
  unfold ctx_okb, ctx_ok. rewrite forallb_forall. intros H p Hin. apply Bool.eqb_prop, H, Hin.
Qed.

Lemma ctxs_okb_ok (names : list string) (g : string -> bool) (b : bool) (outer : string -> N) s (c : string -> nat) :
  forallb (fun o => negb (Bool.eqb (g o) b) || ctx_okb (outer o) s (c o)) names = true ->
  forall o, existsb (String.eqb o) names = true -> g o = b -> CTX (outer o) s (c o).
Proof.
  intros H o Ho Hg. apply (names_forallb _ _ H), orb_true_iff in Ho. destruct Ho as [Ho|Ho]; [|exact (ctx_okb_ok _ _ _ Ho)].
  rewrite Hg, Bool.eqb_reflx in Ho. discriminate Ho.
Qed.

(* Evaluate closed booleans only: with a variable inside, converting `ctx_okb ..` to its unfolding does not return. *)
Lemma C_post : forall o, t_uop o = true -> t_un_post o = true -> CTX (t_un_prec o) (t_side "UnaryOperation" 0) 1.
Proof. apply (ctxs_okb_ok un_names). vm_compute. reflexivity. Qed.
Lemma C_pre : forall o, t_uop o = true -> t_un_post o = false -> CTX (t_un_prec o) (t_side "UnaryOperation" 1) 2.
Proof. apply (ctxs_okb_ok un_names). vm_compute. reflexivity. Qed.
Lemma C_bin : forall o, t_bop o = true ->
  CTX (t_bin_prec o) (t_side "BinaryOperation" 0) (lctx t_blv o) /\ CTX (t_bin_prec o) (t_side "BinaryOperation" 1) (rctx t_blv o).
Proof.
  intros o Ho. split.
  - refine (ctxs_okb_ok bin_names (fun _ => true) true t_bin_prec _ (lctx t_blv) _ o Ho eq_refl). vm_compute. reflexivity.
  - refine (ctxs_okb_ok bin_names (fun _ => true) true t_bin_prec _ (rctx t_blv) _ o Ho eq_refl). vm_compute. reflexivity.
Qed.
Lemma C_tern : CTX P_tern (t_side "TernaryConditional" 0) 12 /\ CTX P_tern (t_side "TernaryConditional" 1) 13 /\
               CTX P_tern (t_side "TernaryConditional" 2) 13.
Proof. repeat split; apply ctx_okb_ok; vm_compute; reflexivity. Qed.
Lemma C_sub : CTX P_sub (t_side "ArraySubscript" 0) 1 /\ CTX P_sub (t_side "ArraySubscript" 1) 1.
Proof. repeat split; apply ctx_okb_ok; vm_compute; reflexivity. Qed.
Lemma C_mem : CTX P_mem (t_side "Member" 0) 1.
Proof. apply ctx_okb_ok. vm_compute. reflexivity. Qed.
Lemma C_call : CTX (outer_of_call 0) (t_side "Call" 0) 1 /\ CTX (outer_of_call 1) (t_side "Call" 1) 13.
Proof. repeat split; apply ctx_okb_ok; vm_compute; reflexivity. Qed.
Lemma C_cast : CTX P_cast (t_side "Cast" 0) 2.
Proof. apply ctx_okb_ok. vm_compute. reflexivity. Qed.
Lemma C_top : CTX top_outer (side_of_name (snd top_call)) 14.
Proof. apply ctx_okb_ok. vm_compute. reflexivity. Qed.

Definition t_wf (G : string -> bool) : expr -> Prop := wf G t_uop t_bop.
Definition t_raw : expr -> list tok := raw t_un_post t_un_sp t_blv t_bin_sp.

Lemma t_print_raw G e : t_wf G e -> toks (t_print e) = t_raw e.
Proof.
  intros Hw. unfold t_print, t_fmt.
  pose proof (bridge_all t_un_prec t_un_sp t_un_post t_bin_prec t_bin_sp t_bin_tight P_leaf P_tern P_sub P_mem P_call P_cast
             (outer_of_call 0) (outer_of_call 1) t_assoc t_sep_chars t_sides t_uop t_bop t_blv t_lvN t_precs
             B_leaf B_un B_bin B_tern B_sub B_mem B_call B_cast C_post C_pre C_bin C_tern C_sub C_mem C_call C_cast
             G e Hw _ _ 14 C_top) as H.
  unfold P_leaf, P_tern, P_sub, P_mem, P_call, P_cast in H. rewrite H. clear H.
  unfold wrap, t_raw.
  assert (Hel : el t_un_post t_blv e <= 14).
  { apply (el_le G t_bin_at t_uop t_un_post t_bop t_blv t_bin_sp I_bin e Hw). }
  destruct (Nat.leb_spec (el t_un_post t_blv e) 14); [reflexivity | lia].
Qed.

Theorem t_roundtrip G e :
  t_wf G e -> gt_paren (toks (t_print e)) = false -> t_parse G (toks (t_print e)) = Ok e [].
Proof.
  intros Hw Hg. rewrite (t_print_raw G e Hw) in *. unfold t_parse.
  apply (parse_print G t_prefix_of t_postfix_of t_bin_at t_uop t_un_post t_un_sp t_bop t_blv t_bin_sp
           I_prefix I_postfix I_postfix_inv I_prefix_paren I_bin I_bin_inv I_bin_level I_comma I_uop_special I_postfix_comma);
    assumption.
Qed.
