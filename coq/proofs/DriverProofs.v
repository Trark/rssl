(* DriverProofs.v — the depth-limited driver never reports exhaustion, and a state it ends in without a diagnostic
   (`inl`) is the one the fuelled driver of the C12 model ends in at some fuel. *)
From Coq Require Import List Bool String Arith Lia.
From RV Require Import Macro MacroProofs Driver.
Import ListNotations.

Section P.
Variable paste : mtok -> mtok -> option mtok.
Variable files : string -> option (list item).
Notation run_d := (run_d paste files).
Notation Run := (run paste files).

Definition to_derr (e : perr) : derr :=
  match e with
  | PMacro e => DMacro e | PInvalidDefine => DInvalidDefine | PMissingFile => DMissingFile | PFuel => DFuel | PHang => DHang
  end.

(* the two drivers treat every item other than #include alike *)
Lemma run_d_step depth self it rest st : no_include it ->
  run_d depth self (it :: rest) st =
  match item_step paste self it st with inl st' => run_d depth self rest st' | inr e => inr (to_derr e) end.
Proof.
  destruct depth; (destruct it as [ts|cmd|x|f|]; intros Hi; try destruct Hi; cbn [Driver.run_d item_step]; try reflexivity).
  (* left, at depth 0 and at depth S _: IText ts, IDefine cmd *)
  1,3: destruct (apply_macros paste (ps_macros st) ts); reflexivity.
  all: destruct (parse_define cmd); reflexivity.
Qed.

Lemma run_d_include depth self f rest st :
  run_d depth self (IInclude f :: rest) st =
  match files f with
  | None => inr DMissingFile
  | Some body =>
      match depth with
      | O => inr DTooDeep
      | S d => match run_d d f (if existsb (String.eqb f) (ps_once st) then [] else body) st with
               | inl st' => run_d depth self rest st'
               | inr e => inr e
               end
      end
  end.
Proof. destruct depth; reflexivity. Qed.

Theorem run_d_never_exhausted : forall depth self its st,
  run_d depth self its st <> inr DFuel /\ run_d depth self its st <> inr DHang.
Proof.
  induction depth as [depth IHd] using lt_wf_ind. intros self its.
  induction its as [|it rest IH]; intros st; [destruct depth; split; discriminate|].
  destruct (item_cases it) as [[f ->]|Hi].
  - rewrite run_d_include. destruct (files f) as [body|]; [|split; discriminate].
    destruct depth as [|d]; [split; discriminate|].
    pose proof (IHd d (Nat.lt_succ_diag_r d) f (if existsb (String.eqb f) (ps_once st) then [] else body) st) as [H1 H2].
    destruct (run_d d f _ st); [apply IH | split; congruence].
  - rewrite run_d_step by exact Hi. destruct (item_step_verdict paste self it st) as [V1 V2].
    destruct (item_step paste self it st) as [st'|e]; [apply IH|].
    destruct e; try (split; discriminate); congruence.
Qed.

Theorem run_d_refines_run : forall depth self its st r,
  run_d depth self its st = inl r -> exists fuel, Run fuel self its st = inl r.
Proof.
  induction depth as [depth IHd] using lt_wf_ind. intros self its.
  induction its as [|it rest IH]; intros st r H; [exists 1; destruct depth; cbn in H |- *; congruence|].
  destruct (item_cases it) as [[f ->]|Hi].
  - rewrite run_d_include in H. destruct (files f) as [body|] eqn:Ef; [|discriminate].
    destruct depth as [|d]; [discriminate|].
    destruct (run_d d f _ st) as [st'|e] eqn:E; [|discriminate].
    destruct (IHd d (Nat.lt_succ_diag_r d) _ _ _ _ E) as [f1 H1]. destruct (IH _ _ H) as [f2 H2].
    exists (S (f1 + f2)). rewrite run_include, Ef.
    rewrite (run_mono_le paste files f1 (f1 + f2) _ _ _ _ ltac:(lia) H1).
    exact (run_mono_le paste files f2 (f1 + f2) _ _ _ _ ltac:(lia) H2).
  - rewrite run_d_step in H by exact Hi. destruct (item_step paste self it st) as [st'|e] eqn:E; [|discriminate].
    destruct (IH _ _ H) as [fuel Hf]. exists (S fuel). rewrite run_step, E by exact Hi. exact Hf.
Qed.
End P.
