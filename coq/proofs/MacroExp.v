(* MacroExp.v — `Exp dis toks next early lf out`: the scan of `toks` gives `out` for every fuel that the termination
   measure of MacroProofs.expand_good allows.  The scan-step lemmas of MacroScan.v become rules whose premises are
   again `Exp` (for each argument, for the rescan of the replacement list, for the rest of the scan), so a derivation
   never mentions fuel. *)
From Coq Require Import List Bool String Arith Lia.
From RV Require Import ListFacts Macro MacroParts MacroProofs MacroSubst MacroScan.
Import ListNotations.
Local Open Scope list_scope.

Section E.
Variable paste : mtok -> mtok -> option mtok.
Variable defs : list macro.
Notation plain := (plain defs).
Notation simple := (simple defs).
Notation among := (among defs).
Notation first_named := (first_named defs).

Definition Exp (dis : list bool) (toks : list mtok) (next early : nat) (lf : option nat) (out : list mtok) : Prop :=
  forall d n, List.length dis = List.length defs -> enabled dis < d -> List.length toks - next < n ->
    expand paste defs d dis n toks next early lf = XOk out.

Theorem Exp_apply toks out : Exp (map (fun _ => false) defs) toks 0 0 None out -> apply_macros paste defs toks = XOk out.
Proof.
  intros H. apply H; [apply map_length | rewrite enabled_all_false | ]; lia.
Qed.

Lemma Exp_plain dis toks next early lf : plain toks -> Exp dis toks next early lf toks.
Proof. intros H [|d] [|n] _ ? ?; try lia. apply expand_plain, H. Qed.

Lemma Exp_obj dis pre mi m rest next early lf out res :
  first_named mi m -> m_fn m = false -> nth mi dis false = false ->
  plain (skipn early pre) -> next <= List.length pre -> early <= List.length pre ->
  Exp (set_nth dis mi true) (subst (m_body m) []) 0 0 None out ->
  Exp dis (pre ++ out ++ rest) (List.length pre + List.length out) (List.length pre) None res ->
  Exp dis (pre ++ MId (m_name m) :: rest) next early lf res.
Proof.
  intros Hfm Hf Hd Hp Hnext Hearly Hin Hcont [|d] [|n] Hl Hen Hn; try lia.
  assert (Hmi : mi < List.length dis) by (rewrite Hl; apply nth_error_Some; destruct Hfm; congruence).
  destruct (enabled_set dis mi Hd Hmi) as [He Hl'].
  rewrite (step_obj paste defs d dis n pre mi m rest next early lf out Hfm Hf Hd Hp Hnext Hearly)
    by (apply Hin; [congruence | lia | lia]).
  apply Hcont; [exact Hl | exact Hen|]. rewrite !app_length in *. cbn [List.length] in Hn. lia.
Qed.

Lemma commas_len args : forall a, In a args -> List.length a <= List.length (commas args).
Proof.
  induction args as [|x r IH]; intros a Ha; [destruct Ha|].
  destruct r as [|y r'].
  - destruct Ha as [<-|[]]. cbn. lia.
  - change (commas (x :: y :: r')) with (x ++ MComma :: commas (y :: r')). rewrite app_length. cbn [List.length].
    destruct Ha as [<-|Ha]; [lia|]. specialize (IH a Ha). lia.
Qed.

Lemma Exp_fn dis pre mi m args args' rest next early lf out res :
  first_named mi m -> m_fn m = true -> nth mi dis false = false ->
  args <> [] -> List.length args = m_params m -> Forall balanced args ->
  plain (skipn early pre) -> next <= List.length pre -> early <= List.length pre ->
  Forall2 (fun a a' => Exp dis a 0 0 None a') (map trim args) args' ->
  Exp (set_nth dis mi true) (subst (m_body m) args') 0 0 None out ->
  Exp dis (pre ++ out ++ rest) (List.length pre + List.length out) (List.length pre) (Some mi) res ->
  Exp dis (pre ++ MId (m_name m) :: MLP :: commas args ++ MRP :: rest) next early lf res.
Proof.
  intros Hfm Hf Hd Hne Hlen Hbal Hp Hnext Hearly Hargs Hin Hcont [|d] [|n] Hl Hen Hn; try lia.
  assert (Hmi : mi < List.length dis) by (rewrite Hl; apply nth_error_Some; destruct Hfm; congruence).
  destruct (enabled_set dis mi Hd Hmi) as [He Hl'].
  rewrite !app_length in Hn. cbn [List.length] in Hn. rewrite !app_length in Hn. cbn [List.length] in Hn.
  rewrite (step_fn paste defs d dis n pre mi m args args' rest next early lf out Hfm Hf Hd Hne Hlen Hbal Hp Hnext Hearly);
    [| |apply Hin; [congruence | lia | lia]].
  - (* the rest *) apply Hcont; [exact Hl | exact Hen|]. rewrite !app_length. lia.
  - (* the arguments *)
    clear - Hargs Hl Hen Hn Hnext. assert (Hb : forall a, In a (map trim args) -> List.length a < n).
    { intros a Ha. apply in_map_iff in Ha as (a0 & <- & Ha0). pose proof (trim_len a0). pose proof (commas_len args a0 Ha0). lia. }
    induction Hargs as [|a a' l l' Ha _ IH]; constructor.
    + apply Ha; [exact Hl | exact Hen|]. specialize (Hb a (or_introl eq_refl)). lia.
    + apply IH. intros b Hb'. apply Hb. right; exact Hb'.
Qed.

Lemma Exp_obj_noarg dis pre mi m rest next early lf out res :
  first_named mi m -> m_fn m = false -> nth mi dis false = false -> noarg (m_body m) ->
  plain (skipn early pre) -> next <= List.length pre -> early <= List.length pre ->
  Exp (set_nth dis mi true) (m_body m) 0 0 None out ->
  Exp dis (pre ++ out ++ rest) (List.length pre + List.length out) (List.length pre) None res ->
  Exp dis (pre ++ MId (m_name m) :: rest) next early lf res.
Proof. intros ? ? ? Hna ? ? ? Hin ?. eapply Exp_obj; eauto. rewrite (subst_noarg _ _ Hna). exact Hin. Qed.

Lemma simple_args_plain args : Forall simple args -> Forall plain (map trim args).
Proof. induction 1 as [|a r [Hp _] _ IH]; cbn [map]; constructor; [apply plain_trim, Hp | exact IH]. Qed.

Lemma simple_balanced a : simple a -> balanced a.
Proof. intros [_ H]. exact H. Qed.

Lemma simple_args_Exp dis args : Forall simple args ->
  Forall balanced args /\ Forall2 (fun a a' => Exp dis a 0 0 None a') (map trim args) (map trim args).
Proof.
  induction 1 as [|a r Ha _ (IH1 & IH2)]; [repeat constructor|].
  split; cbn [map]; constructor; try assumption; [exact (simple_balanced a Ha) | apply Exp_plain, plain_trim, (proj1 Ha)].
Qed.

Lemma Exp_obj_plain dis pre mi m post out :
  first_named mi m -> m_fn m = false -> nth mi dis false = false -> noarg (m_body m) ->
  plain pre -> plain post -> Exp (set_nth dis mi true) (m_body m) 0 0 None out -> plain out ->
  Exp dis (pre ++ MId (m_name m) :: post) 0 0 None (pre ++ out ++ post).
Proof.
  intros Hfm Hf Hd Hna Hpre Hpost Hin Hout.
  apply (Exp_obj_noarg dis pre mi m post 0 0 None out); try assumption; try lia.
  apply Exp_plain. repeat apply plain_app; assumption.
Qed.

Lemma Exp_fn_plain dis pre mi m args post out :
  first_named mi m -> m_fn m = true -> nth mi dis false = false ->
  args <> [] -> List.length args = m_params m -> Forall simple args ->
  plain pre -> plain post -> Exp (set_nth dis mi true) (subst (m_body m) (map trim args)) 0 0 None out -> plain out ->
  Exp dis (pre ++ MId (m_name m) :: MLP :: commas args ++ MRP :: post) 0 0 None (pre ++ out ++ post).
Proof.
  intros Hfm Hf Hd Hne Hlen Hs Hpre Hpost Hin Hout.
  destruct (simple_args_Exp dis args Hs) as (Hbal & Hex).
  apply (Exp_fn dis pre mi m args (map trim args) post 0 0 None out); try assumption; try lia.
  apply Exp_plain. repeat apply plain_app; assumption.
Qed.

Lemma simple_subst_plain m args : forallb (bodyb defs) (m_body m) = true -> Forall simple args ->
  plain (subst (m_body m) (map trim args)).
Proof. intros Hb Hs. apply subst_is_plain; [exact Hb | exact (simple_args_plain args Hs)]. Qed.

Lemma among_mid X x a b : In x X -> plain a -> plain b -> among X (a ++ MId x :: b).
Proof.
  intros Hx Ha Hb. apply among_app; [apply plain_among, Ha|].
  intros t [<-|Ht]; [right; exists x; split; [exact Hx | reflexivity] | apply (plain_among defs X b Hb t Ht)].
Qed.

Lemma index_neq ia a ib b : nth_error defs ia = Some a -> nth_error defs ib = Some b ->
  String.eqb (m_name a) (m_name b) = false -> ia <> ib.
Proof. intros Ha Hb Hab ->. rewrite Ha in Hb. inversion Hb; subst b. rewrite String.eqb_refl in Hab. discriminate. Qed.

(* a macro whose name no other macro has is left alone wherever it is disabled or, being object-like, lies left of `next`:
   the rescan of a replacement list that names it again, and the text left of the point where the scan resumes *)
Lemma Exp_stays dis ia a done seg post next lf :
  nth_error defs ia = Some a ->
  (forall j m', j <> ia -> nth_error defs j = Some m' -> String.eqb (m_name a) (m_name m') = false) ->
  among [m_name a] seg -> plain post ->
  nth ia dis false = true \/ m_fn a = false /\ List.length done + List.length seg <= next ->
  Exp dis (done ++ seg ++ post) next (List.length done) lf (done ++ seg ++ post).
Proof.
  intros Ha Huniq Hs Hp Hor [|d] [|n] _ ? ?; try lia.
  rewrite expand_eq. unfold loop_step. destruct (Nat.leb _ _); [reflexivity|].
  unfold find. rewrite skipn_app_length_eq.
  rewrite (find_from_pass defs dis [m_name a] next lf seg post _ _ Hs).
  - rewrite <- (app_nil_r post).
    rewrite (find_from_pass defs dis [] next lf post [] _ _ (plain_among defs [] _ Hp)); [reflexivity | intros x after j []].
  - intros x after j [<-|[]] Hj. apply pick_blocked. intros k m' Hk. cbn [Nat.add].
    destruct (Nat.eq_dec k ia) as [->|Hk']; [|left; apply (Huniq k m' Hk' Hk)].
    destruct Hor as [E|[Hf E]]; [right; left; exact E | right; right].
    rewrite Ha in Hk. inversion Hk; subst m'. split; [exact Hf | lia].
Qed.

Lemma Exp_stays_disabled dis ia a seg :
  nth_error defs ia = Some a ->
  (forall j m', j <> ia -> nth_error defs j = Some m' -> String.eqb (m_name a) (m_name m') = false) ->
  among [m_name a] seg -> nth ia dis false = true -> Exp dis seg 0 0 None seg.
Proof.
  intros Ha Huniq Hs Hd.
  pose proof (Exp_stays dis ia a [] seg [] 0 None Ha Huniq Hs eq_refl (or_introl Hd)) as E.
  cbn [app List.length] in E. rewrite app_nil_r in E. exact E.
Qed.

End E.
