(* MslThreadingProofs.v — globals reach exactly the functions that need them; trampolines keep copy semantics. *)
From Coq Require Import List NArith ZArith Bool Lia Permutation Sorted.
From RV Require Import Perm ListFacts PermProofs MslThreading.
Import ListNotations.

Section Threading.
Variable s0 : state.              (* direct requirements: functions called and globals mentioned *)
Variable threaded : key -> bool.
Variable fuel : nat.
Variable ks : list key.
Variable s : state.
Hypothesis Hfix : recurse fuel ks s0 = Some s.

Theorem required_exact f g : In f ks -> (In g (required s threaded f) <-> threaded g = true /\ reach s0 f g).
Proof.
  intros Hf. unfold required. split.
  - intros H. apply (Permutation_in _ (isort_perm key N.leb _)) in H. apply filter_In in H as [H1 H2].
    split; [exact H2|]. apply (recurse_is_reachability s0 fuel ks s f Hfix Hf g). exact H1.
  - intros [H1 H2]. apply (Permutation_in _ (Permutation_sym (isort_perm key N.leb _))). apply filter_In. split; [|exact H1].
    apply (recurse_is_reachability s0 fuel ks s f Hfix Hf g). exact H2.
Qed.

Theorem call_is_well_scoped f d g :
  In f ks -> In d ks -> In d (get s0 f) -> In g (required s threaded d) -> In g (required s threaded f).
Proof.
  intros Hf Hd Hcall Hg. apply (required_exact d g Hd) in Hg as [Ht Hr]. apply (required_exact f g Hf).
  split; [exact Ht | exact (reach_trans s0 f d g (reach_direct s0 f d Hcall) Hr)].
Qed.

Theorem call_matches_signature params args d :
  skipn (List.length args) (call_arguments s threaded args d) = skipn (List.length params) (signature s threaded params d).
Proof. unfold call_arguments, signature. rewrite !skipn_app_length_eq. reflexivity. Qed.

Theorem required_sorted f : StronglySorted (le_by key N.leb) (required s threaded f).
Proof. apply (isort_sorted key N.leb N_leb_total N_leb_trans). Qed.
End Threading.

Lemma upd_same s x v : upd s x v x = v.
Proof. unfold upd. rewrite N.eqb_refl. reflexivity. Qed.
Lemma upd_other s x v y : y <> x -> upd s x v y = s y.
Proof. unfold upd. intros H. destruct (N.eqb y x) eqn:E; [apply N.eqb_eq in E; contradiction | reflexivity]. Qed.

Lemma copy_other : forall dst vals s y, ~ In y dst -> copy s dst vals y = s y.
Proof.
  induction dst as [|a r IH]; intros vals s y H; [reflexivity|]. destruct vals as [|v w]; [reflexivity|].
  cbn [copy]. rewrite IH; [|intros X; apply H; right; exact X]. apply upd_other. intros E; apply H; left; symmetry; exact E.
Qed.

Lemma copy_map : forall dst vals s, NoDup dst -> List.length vals = List.length dst -> map (copy s dst vals) dst = vals.
Proof.
  induction dst as [|a r IH]; intros vals s N L; destruct vals as [|v w]; try discriminate; [reflexivity|].
  cbn [copy map]. inversion N as [|? ? Ha Nr]; subst. f_equal.
  - rewrite copy_other; [apply upd_same | exact Ha].
  - apply IH; [exact Nr | cbn in L; lia].
Qed.

Lemma map_upd_nth : forall addrs s d a v, NoDup addrs -> nth_error addrs d = Some a ->
  map (upd s a v) addrs = set_nth d v (map s addrs).
Proof.
  induction addrs as [|x r IH]; intros s d a v N H; [destruct d; discriminate|].
  inversion N as [|? ? Hx Nr]; subst. destruct d as [|d]; cbn in H.
  - inversion H; subst. cbn [map set_nth]. rewrite upd_same. f_equal.
    apply map_ext_in. intros y Hy. apply upd_other. intros E; subst; contradiction.
  - cbn [map set_nth]. rewrite upd_other.
    + f_equal. apply IH; assumption.
    + intros E; subst. apply Hx. apply nth_error_In in H. exact H.
Qed.

Definition wf_body (n : nat) (b : list instr) : Prop := Forall (fun i => match i with ISet d _ => d < n end) b.

Lemma ref_simulates : forall b addrs s, NoDup addrs -> wf_body (List.length addrs) b ->
  map (run_body_ref addrs b s) addrs = run_body b (map s addrs) /\
  forall y, ~ In y addrs -> run_body_ref addrs b s y = s y.
Proof.
  induction b as [|i b IH]; intros addrs s N W; [split; reflexivity|].
  inversion W as [|? ? Wi Wb]; subst. destruct i as [d f]. cbn [run_body_ref run_body fold_left run_instr_ref run_instr].
  destruct (nth_error addrs d) as [a|] eqn:E; [|apply nth_error_None in E; lia].
  destruct (IH addrs (upd s a (f (map s addrs))) N Wb) as [I1 I2]. split.
  - unfold run_body_ref, run_body in *. rewrite I1. rewrite (map_upd_nth addrs s d a _ N E). reflexivity.
  - intros y Hy. unfold run_body_ref in *. rewrite (I2 y Hy). apply upd_other. intros X; subst. apply Hy. apply nth_error_In in E. exact E.
Qed.

Theorem trampoline_keeps_copy_semantics b locals args s :
  NoDup locals -> List.length locals = List.length args -> wf_body (List.length args) b ->
  (forall x, In x locals -> ~ In x args) ->
  forall y, ~ In y locals -> metal_call b locals args s y = hlsl_call b args s y.
Proof.
  intros N L W D y Hy. unfold metal_call, hlsl_call.
  set (s1 := copy s locals (map s args)).
  assert (M1 : map s1 locals = map s args). { apply copy_map; [exact N | rewrite map_length; lia]. }
  rewrite <- L in W. destruct (ref_simulates b locals s1 N W) as [R1 R2].
  rewrite R1, M1.
  (* copying the same values into args from two stores that agree outside the locals *)
  assert (G : forall vals t t', (forall z, ~ In z locals -> t z = t' z) -> forall z, ~ In z locals -> copy t args vals z = copy t' args vals z).
  { clear - D. induction args as [|a r IH]; intros vals t t' A z Hz; [apply A; exact Hz|].
    destruct vals as [|v w]; [apply A; exact Hz|]. cbn [copy]. apply IH.
    - intros x Hx Hr. apply (D x Hx). right. exact Hr.
    - intros q Hq. unfold upd. destruct (N.eqb q a); [reflexivity | apply A; exact Hq].
    - exact Hz. }
  apply G; [|exact Hy]. intros z Hz. rewrite (R2 z Hz). unfold s1. apply copy_other. exact Hz.
Qed.

(* the trampoline is needed: called as f(a, a) with a = 1, references alone can compute something else than
   copy-in / copy-out.  Not on this body, p0 := p0 + 1; p1 := p0 * 10: both give 20 *)
Definition ex_body : list instr :=
  [ISet 0 (fun v => (nth 0 v 0 + 1)%Z); ISet 1 (fun v => (nth 0 v 0 * 10)%Z)].

Example references_alone_differ :
  hlsl_call ex_body [5%N; 5%N] (fun _ => 1%Z) 5%N = 20%Z /\
  metal_call_direct ex_body [5%N; 5%N] (fun _ => 1%Z) 5%N = 20%Z /\
  (* p1 := p0 * 10 then p0 := p1 + 1 : copy-out writes p1 last into a, which gives 10; through references a ends as 11 *)
  hlsl_call [ISet 1 (fun v => (nth 0 v 0 * 10)%Z); ISet 0 (fun v => (nth 1 v 0 + 1)%Z)] [5%N; 5%N] (fun _ => 1%Z) 5%N = 10%Z /\
  metal_call_direct [ISet 1 (fun v => (nth 0 v 0 * 10)%Z); ISet 0 (fun v => (nth 1 v 0 + 1)%Z)] [5%N; 5%N] (fun _ => 1%Z) 5%N = 11%Z /\
  metal_call [ISet 1 (fun v => (nth 0 v 0 * 10)%Z); ISet 0 (fun v => (nth 1 v 0 + 1)%Z)] [100%N; 101%N] [5%N; 5%N] (fun _ => 1%Z) 5%N = 10%Z.
Proof. vm_compute. repeat split. Qed.
