(* MacroLines.v — what the C12 theorems on #define, redefinition and #undef lines need: the macro a #define appends is
   the first of its name, a #define line followed by text, and a name whose macros #undef removed is plain. *)
From Coq Require Import List Bool String Arith Lia.
From RV Require Import Macro MacroSubst MacroScan.
Import ListNotations.
Local Open Scope list_scope.

Section Lines.
Variable paste : mtok -> mtok -> option mtok.
Variable files : string -> option (list item).

Lemma removed_name x ms : existsb (fun m => String.eqb x (m_name m)) (remove_macro x ms) = false.
Proof.
  induction ms as [|m r IH]; [reflexivity|]. unfold remove_macro in *. cbn [filter].
  destruct (String.eqb (m_name m) x) eqn:E; cbn [negb]; [exact IH|].
  cbn [existsb]. rewrite IH, orb_false_r. rewrite String.eqb_sym. exact E.
Qed.

Lemma removed_nth x ms j m' :
  nth_error (remove_macro x ms) j = Some m' -> String.eqb x (m_name m') = false.
Proof.
  intros H. apply nth_error_In in H. unfold remove_macro in H. apply filter_In in H as [_ H].
  rewrite String.eqb_sym. destruct (String.eqb (m_name m') x); [discriminate | reflexivity].
Qed.

(* #define removes the old macros of that name and appends the new one, which is then the first of its name *)
Lemma define_first ms m : first_named (remove_macro (m_name m) ms ++ [m]) (List.length (remove_macro (m_name m) ms)) m.
Proof.
  split.
  - rewrite nth_error_app2 by lia. rewrite Nat.sub_diag. reflexivity.
  - intros j m' Hj Hn. rewrite nth_error_app1 in Hn by exact Hj. apply (removed_nth _ _ _ _ Hn).
Qed.

Lemma run_define_text fuel self cmd m ts out st : parse_define cmd = Some m ->
  apply_macros paste (remove_macro (m_name m) (ps_macros st) ++ [m]) ts = XOk out ->
  run paste files (S (S (S fuel))) self [IDefine cmd; IText ts] st =
  inl {| ps_macros := remove_macro (m_name m) (ps_macros st) ++ [m]; ps_once := ps_once st; ps_out := ps_out st ++ out |}.
Proof. intros Hp Ha. cbn [run]. rewrite Hp. cbn [ps_macros ps_once ps_out]. rewrite Ha. reflexivity. Qed.

Lemma plain_removed x ms pre post :
  plain (remove_macro x ms) pre -> plain (remove_macro x ms) post -> plain (remove_macro x ms) (pre ++ MId x :: post).
Proof.
  intros Hpre Hpost. apply plain_app; [exact Hpre|]. unfold plain in *. cbn [forallb plainb]. rewrite Hpost, andb_true_r.
  unfold is_name. rewrite removed_name. reflexivity.
Qed.

End Lines.
