(* LayoutProofs.v — soundness of the layout-consistency check (model of
   ir/src/layout_checker.rs) against the reference rules, for any scalar table. *)
From Coq Require Import List NArith Bool Lia.
From RV Require Import Layout.
Import ListNotations.
Local Open Scope N_scope.

Scheme ty_mind := Induction for ty Sort Prop
  with tys_mind := Induction for tys Sort Prop.
Combined Scheme ty_tys_ind from ty_mind, tys_mind.

Section Proofs.
Variable scalar : Type.
Variable ssize : scalar -> option N.
Variable sbool : scalar -> bool.
Variable amin : N.
Hypothesis amin_one : amin = 1.

Notation ty := (ty scalar).
Notation tys := (tys scalar).
Notation layout := (layout scalar ssize sbool).
Notation layout_members := (layout_members scalar ssize sbool).
Notation offsets := (offsets scalar ssize sbool amin).
Notation offsets_members := (offsets_members scalar ssize sbool amin).
Notation spec_sa := (spec_sa scalar ssize sbool).
Notation spec_members_sa := (spec_members_sa scalar ssize sbool).
Notation spec_fields := (spec_fields scalar ssize sbool).
Notation spec_member_fields := (spec_member_fields scalar ssize sbool).
Notation spec_total := (spec_total scalar ssize sbool).
Notation check := (check scalar ssize sbool amin).
Notation stride := (stride scalar ssize sbool).
Notation scalar_layout := (scalar_layout scalar ssize sbool).

(* What each function does on each form of type.  The proofs rewrite with these equations: cbn leaves a call from one
   function of a mutual block to the other (layout_members to layout, offsets_members to offsets) as a bare fix. *)
Lemma layout_vec m s n : layout m (TVec s n) =
  match scalar_layout s with
  | None => None
  | Some (z, a) => match m with Hlsl => Some (z * n, a) | Metal => let x := pow2ceil n in Some (z * x, z * x) end
  end.
Proof. reflexivity. Qed.
Lemma layout_struct m ms : layout m (TStruct ms) =
  match layout_members m ms 0 1 with None => None | Some (z, a) => Some (round_up z a, a) end.
Proof. reflexivity. Qed.
Lemma layout_arr m t n : layout m (TArr t n) =
  match layout m t with None => None | Some (z, a) => Some (z * n, a) end.
Proof. reflexivity. Qed.
Lemma layout_members_cons m t r c a : layout_members m (TCons t r) c a =
  match layout m t with None => None | Some (z, a') => layout_members m r (round_up c a' + z) (N.max a a') end.
Proof. reflexivity. Qed.
Lemma spec_vec m s n : spec_sa m (TVec s n) =
  match scalar_layout s with
  | None => None
  | Some (z, a) => match m with Hlsl => Some (n * z, a) | Metal => Some (pow2ceil n * z, pow2ceil n * z) end
  end.
Proof. reflexivity. Qed.
Lemma spec_struct m ms : spec_sa m (TStruct ms) =
  match spec_members_sa m ms 0 1 with None => None | Some (z, a) => Some (round_up z a, a) end.
Proof. reflexivity. Qed.
Lemma spec_arr m t n : spec_sa m (TArr t n) =
  match spec_sa m t with None => None | Some (z, a) => Some (n * z, a) end.
Proof. reflexivity. Qed.
Lemma spec_members_cons m t r c a : spec_members_sa m (TCons t r) c a =
  match spec_sa m t with None => None | Some (z, a') => spec_members_sa m r (round_up c a' + z) (N.max a a') end.
Proof. reflexivity. Qed.
Lemma offsets_struct m ms b : offsets m (TStruct ms) b = offsets_members m ms b 0.
Proof. reflexivity. Qed.
Lemma offsets_arr m t n b : offsets m (TArr t n) b =
  match layout m t with
  | None => []
  | Some (z, _) => offsets m t b ++ (if amin <? n then [b + z] else [])
  end.
Proof. reflexivity. Qed.
Lemma offsets_members_cons m t r b c : offsets_members m (TCons t r) b c =
  match layout m t with
  | None => []
  | Some (z, a) => (b + round_up c a) :: offsets m t (b + round_up c a) ++ offsets_members m r b (round_up c a + z)
  end.
Proof. reflexivity. Qed.
Lemma fields_struct m ms b : spec_fields m (TStruct ms) b = spec_member_fields m ms b 0.
Proof. reflexivity. Qed.
Lemma fields_arr m t n b : spec_fields m (TArr t n) b =
  flat_map (fun i => spec_fields m t (b + N.of_nat i * stride m t)) (seq 0 (N.to_nat n)).
Proof. reflexivity. Qed.
Lemma member_fields_cons m t r b c : spec_member_fields m (TCons t r) b c =
  match spec_sa m t with
  | None => []
  | Some (z, a) => spec_fields m t (b + round_up c a) ++ spec_member_fields m r b (round_up c a + z)
  end.
Proof. reflexivity. Qed.

Lemma layout_is_spec m :
  (forall t : ty, layout m t = spec_sa m t) /\
  (forall ms : tys, forall c a, layout_members m ms c a = spec_members_sa m ms c a).
Proof.
  apply ty_tys_ind; try (intros; reflexivity).
  - (* TVec *) intros s n. rewrite layout_vec, spec_vec. destruct (scalar_layout s) as [[z a]|]; [|reflexivity].
    destruct m; cbv zeta; rewrite (N.mul_comm z); reflexivity.
  - (* TStruct *) intros ms IHms. rewrite layout_struct, spec_struct, IHms. reflexivity.
  - (* TArr *) intros t IHt n. rewrite layout_arr, spec_arr, IHt. destruct (spec_sa m t) as [[z a]|]; [|reflexivity].
    rewrite N.mul_comm. reflexivity.
  - (* TCons *) intros t IHt ms IHms c a. rewrite layout_members_cons, spec_members_cons, IHt.
    destruct (spec_sa m t) as [[z a']|]; [|reflexivity]. apply IHms.
Qed.

Definition some {A} (o : option A) : bool := match o with Some _ => true | None => false end.

Lemma defined_mode_indep :
  (forall t : ty, some (layout Hlsl t) = some (layout Metal t)) /\
  (forall ms : tys, forall c a c' a', some (layout_members Hlsl ms c a) = some (layout_members Metal ms c' a')).
Proof.
  apply ty_tys_ind; try (intros; reflexivity).
  - (* TVec *) intros s n. rewrite !layout_vec. destruct (scalar_layout s) as [[z a]|]; reflexivity.
  - (* TStruct *) intros ms IHms. rewrite !layout_struct. specialize (IHms 0 1 0 1).
    destruct (layout_members Hlsl ms 0 1) as [[? ?]|], (layout_members Metal ms 0 1) as [[? ?]|]; cbn in *; congruence.
  - (* TArr *) intros t IHt n. rewrite !layout_arr.
    destruct (layout Hlsl t) as [[? ?]|], (layout Metal t) as [[? ?]|]; cbn in *; congruence.
  - (* TCons *) intros t IHt ms IHms c a c' a'. rewrite !layout_members_cons.
    destruct (layout Hlsl t) as [[? ?]|], (layout Metal t) as [[? ?]|]; cbn in *; try congruence. apply IHms.
Qed.

Lemma offsets_length :
  (forall t : ty, forall b b', length (offsets Hlsl t b) = length (offsets Metal t b')) /\
  (forall ms : tys, forall b c b' c', length (offsets_members Hlsl ms b c) = length (offsets_members Metal ms b' c')).
Proof.
  apply ty_tys_ind; try (intros; reflexivity).
  - (* TStruct *) intros ms IHms b b'. rewrite !offsets_struct. apply IHms.
  - (* TArr *) intros t IHt n b b'. rewrite !offsets_arr. assert (D := proj1 defined_mode_indep t).
    destruct (layout Hlsl t) as [[? ?]|], (layout Metal t) as [[? ?]|]; cbn in D; try congruence.
    rewrite !app_length, (IHt b b'). destruct (amin <? n); reflexivity.
  - (* TCons *) intros t IHt ms IHms b c b' c'. rewrite !offsets_members_cons. assert (D := proj1 defined_mode_indep t).
    destruct (layout Hlsl t) as [[? ?]|], (layout Metal t) as [[? ?]|]; cbn in D; try congruence.
    cbn [length]. rewrite !app_length. f_equal. f_equal; [apply IHt | apply IHms].
Qed.

Lemma offsets_shift m :
  (forall t : ty, forall b d, offsets m t (b + d) = map (fun x => x + d) (offsets m t b)) /\
  (forall ms : tys, forall b c d, offsets_members m ms (b + d) c = map (fun x => x + d) (offsets_members m ms b c)).
Proof.
  apply ty_tys_ind; try (intros; reflexivity).
  - (* TStruct *) intros ms IHms b d. rewrite !offsets_struct. apply IHms.
  - (* TArr *) intros t IHt n b d. rewrite !offsets_arr. destruct (layout m t) as [[z a]|]; [|reflexivity].
    rewrite map_app, IHt. f_equal. destruct (amin <? n); cbn [map]; [f_equal; lia | reflexivity].
  - (* TCons *) intros t IHt ms IHms b c d. rewrite !offsets_members_cons.
    destruct (layout m t) as [[z a]|]; [|reflexivity]. cbn [map]. rewrite map_app. f_equal; [lia|]. f_equal.
    + replace (b + d + round_up c a) with (b + round_up c a + d) by lia. apply IHt.
    + apply IHms.
Qed.

Lemma app_eq_len {A} (a b c d : list A) : length a = length c -> a ++ b = c ++ d -> a = c /\ b = d.
Proof.
  revert c; induction a as [|x a IH]; intros [|y c] L E; cbn in *; try discriminate; [auto|].
  inversion E; subst. destruct (IH c) as [-> ->]; auto.
Qed.

(* The recorded offsets determine the offsets of all fields: a member's offset is recorded, and an array of more than
   one element records where its second element starts, hence the stride. *)
Lemma fields_from_offsets :
  (forall t : ty, forall b, layout Hlsl t <> None -> offsets Hlsl t b = offsets Metal t b ->
      spec_fields Hlsl t b = spec_fields Metal t b) /\
  (forall ms : tys, forall b cH cM aH, layout_members Hlsl ms cH aH <> None ->
      offsets_members Hlsl ms b cH = offsets_members Metal ms b cM ->
      spec_member_fields Hlsl ms b cH = spec_member_fields Metal ms b cM).
Proof.
  apply ty_tys_ind; try (intros; reflexivity).
  - (* TStruct *) intros ms IHms b. rewrite layout_struct, !offsets_struct, !fields_struct. intros ND EO.
    apply (IHms b 0 0 1); [|exact EO]. destruct (layout_members Hlsl ms 0 1); congruence.
  - (* TArr *) intros t IHt n b. rewrite layout_arr, !offsets_arr, !fields_arr. intros ND EO.
    assert (D := proj1 defined_mode_indep t). unfold Layout.stride. rewrite <- !(proj1 (layout_is_spec _)).
    destruct (layout Hlsl t) as [[zH aH]|] eqn:LH; [|congruence].
    destruct (layout Metal t) as [[zM aM]|] eqn:LM; [|cbn in D; congruence].
    assert (LH' : layout Hlsl t <> None) by congruence.
    destruct (N.ltb_spec amin n) as [Hn|Hn]; rewrite amin_one in Hn.
    + (* the second element's start is recorded on both sides: equal strides *)
      apply app_eq_len in EO as [E1 E2]; [|apply (proj1 offsets_length)].
      inversion E2 as [E3]. assert (zH = zM) by lia. subst zM.
      apply flat_map_ext. intros i. apply IHt; [congruence|].
      rewrite !(proj1 (offsets_shift _)), E1. reflexivity.
    + (* at most one element: the stride is multiplied by 0 *)
      rewrite !app_nil_r in EO.
      assert (n = 0 \/ n = 1) as [->| ->] by lia; [reflexivity|].
      change (N.to_nat 1) with 1%nat. cbn [seq flat_map N.of_nat]. rewrite !app_nil_r, !N.mul_0_l, !N.add_0_r.
      apply IHt; [congruence | exact EO].
  - (* TCons *) intros t IHt ms IHms b cH cM aH.
    rewrite layout_members_cons, !offsets_members_cons, !member_fields_cons. intros ND EO.
    assert (D := proj1 defined_mode_indep t). rewrite <- !(proj1 (layout_is_spec _)).
    destruct (layout Hlsl t) as [[zH aH']|] eqn:LH; [|congruence].
    destruct (layout Metal t) as [[zM aM']|] eqn:LM; [|cbn in D; congruence].
    inversion EO as [[E0 E1]].
    assert (ER : round_up cH aH' = round_up cM aM') by lia. rewrite ER in *.
    apply app_eq_len in E1 as [E2 E3]; [|apply (proj1 offsets_length)].
    f_equal.
    + apply IHt; [congruence | exact E2].
    + eapply IHms; [exact ND | exact E3].
Qed.

Lemma first_diff_none (a b : list N) : length a = length b -> first_diff a b = None -> a = b.
Proof.
  revert b; induction a as [|x a IH]; intros [|y b] L E; cbn in *; try discriminate; [reflexivity|].
  destruct (N.eqb_spec x y); [|discriminate]. subst. f_equal. apply IH; [lia | exact E].
Qed.

Theorem check_sound (t : ty) :
  check t = Accept ->
  exists z, spec_total Hlsl t = Some z /\ spec_total Metal t = Some z /\
            spec_fields Hlsl t 0 = spec_fields Metal t 0.
Proof.
  unfold Layout.check, Layout.spec_total. rewrite <- !(proj1 (layout_is_spec _)).
  destruct (layout Hlsl t) as [[hz ha]|] eqn:LH; [|discriminate].
  destruct (layout Metal t) as [[mz ma]|] eqn:LM; [|discriminate].
  destruct (N.eqb_spec (round_up hz ha) (round_up mz ma)) as [E|]; cbn [negb]; [|discriminate].
  destruct (first_diff (offsets Hlsl t 0) (offsets Metal t 0)) as [[x y]|] eqn:FD; [discriminate|].
  intros _. exists (round_up hz ha). rewrite E. repeat split.
  apply (proj1 fields_from_offsets); [congruence|].
  apply first_diff_none; [apply (proj1 offsets_length) | exact FD].
Qed.

Theorem check_reports_truth (t : ty) hs ha ms ma :
  check t = Mismatch hs ha ms ma ->
  spec_total Hlsl t = Some hs /\ spec_total Metal t = Some ms /\ hs <> ms /\
  option_map snd (spec_sa Hlsl t) = Some ha /\ option_map snd (spec_sa Metal t) = Some ma.
Proof.
  unfold Layout.check, Layout.spec_total. rewrite <- !(proj1 (layout_is_spec _)).
  destruct (layout Hlsl t) as [[hz ha']|] eqn:LH; [|discriminate].
  destruct (layout Metal t) as [[mz ma']|] eqn:LM; [|discriminate].
  destruct (N.eqb_spec (round_up hz ha') (round_up mz ma')) as [E|NE]; cbn [negb].
  - destruct (first_diff _ _) as [[? ?]|]; discriminate.
  - intros H; inversion H; subst. cbn. auto.
Qed.

(* the pair first_diff returns: two different numbers, one from each list *)
Lemma first_diff_some (a b : list N) x y : first_diff a b = Some (x, y) -> x <> y /\ In x a /\ In y b.
Proof.
  revert b; induction a as [|u a IH]; intros [|v b] E; cbn in *; try discriminate.
  destruct (N.eqb_spec u v).
  - destruct (IH _ E) as (? & ? & ?). auto.
  - inversion E; subst. auto.
Qed.

Notation check32 := (check32 scalar ssize sbool amin).
Notation fits := (fits scalar ssize sbool).
Lemma check32_cases (t : ty) v : check32 t = v -> v = Unknown \/ check t = v.
Proof. unfold Layout.check32. destruct (fits Hlsl t && fits Metal t); intros <-; [right|left]; reflexivity. Qed.

Theorem check32_sound (t : ty) :
  check32 t = Accept ->
  exists z, spec_total Hlsl t = Some z /\ spec_total Metal t = Some z /\
            spec_fields Hlsl t 0 = spec_fields Metal t 0.
Proof. intros H. destruct (check32_cases t _ H) as [E|E]; [discriminate|]. apply check_sound. exact E. Qed.

Theorem check32_reports_truth (t : ty) hs ha ms ma :
  check32 t = Mismatch hs ha ms ma ->
  spec_total Hlsl t = Some hs /\ spec_total Metal t = Some ms /\ hs <> ms /\
  option_map snd (spec_sa Hlsl t) = Some ha /\ option_map snd (spec_sa Metal t) = Some ma.
Proof. intros H. destruct (check32_cases t _ H) as [E|E]; [discriminate|]. apply check_reports_truth. exact E. Qed.

End Proofs.
