(* LocProofs.v — location decoding: inserting whole lines shifts the line by their number and keeps the column;
   a location handed out for file i decodes to file i's name and to the line/column inside that file; loading more
   files never changes what an earlier location decodes to. *)
From Coq Require Import List NArith Bool String Lia Arith.
From RV Require Import Loc.
Import ListNotations.
Local Open Scope N_scope.

Lemma advance_app a b n line col :
  advance (a ++ b) (List.length a + n) line col =
  let '(l, c) := advance a (List.length a) line col in advance b n l c.
Proof.
  revert line col. induction a as [|x a IH]; intros line col; cbn [app List.length Nat.add advance]; [reflexivity|].
  destruct (x =? nl); apply IH.
Qed.

Lemma advance_lines l : forall line col, fst (advance l (List.length l) line col) = line + count_nl l.
Proof.
  unfold count_nl. induction l as [|x l IH]; intros line col; cbn [List.length advance filter]; [cbn; lia|].
  destruct (x =? nl); rewrite IH; cbn [List.length]; lia.
Qed.

Lemma advance_whole_lines ins line :
  (ins = [] \/ last ins 0 = nl) -> advance ins (List.length ins) line 1 = (line + count_nl ins, 1).
Proof.
  intros Hlast. pose proof (advance_lines ins line 1) as H1.
  destruct (advance ins (List.length ins) line 1) as [l c] eqn:E. cbn [fst] in H1. subst l. f_equal.
  destruct ins as [|x r]; [cbn in E; inversion E; reflexivity|]. destruct Hlast as [Hl|Hl]; [discriminate|].
  rewrite (app_removelast_last 0 (l:=x :: r)) in E by discriminate. rewrite Hl in E.
  rewrite app_length in E. cbn [List.length] in E. rewrite advance_app in E.
  destruct (advance (removelast (x :: r)) (List.length (removelast (x :: r))) line 1) as [l' c'].
  cbn in E. inversion E. reflexivity.
Qed.

Lemma advance_line_shift b n k line col :
  advance b n (line + k) col = let '(l, c) := advance b n line col in (l + k, c).
Proof.
  revert n line col. induction b as [|x b IH]; intros [|n] line col; cbn [advance]; try reflexivity.
  destruct (x =? nl).
  - replace (line + k + 1) with (line + 1 + k) by lia. apply IH.
  - apply IH.
Qed.

Theorem line_shift a ins b j :
  (a = [] \/ last a 0 = nl) -> (ins = [] \/ last ins 0 = nl) ->
  line_col (a ++ ins ++ b) (List.length a + (List.length ins + j)) =
  let '(l, c) := line_col (a ++ b) (List.length a + j) in (l + count_nl ins, c).
Proof.
  intros Ha Hi. unfold line_col. rewrite !advance_app.
  rewrite (advance_whole_lines a 1 Ha). cbv zeta.
  rewrite advance_app. rewrite (advance_whole_lines ins _ Hi). cbv zeta.
  rewrite advance_line_shift. destruct (advance b j (1 + count_nl a) 1). reflexivity.
Qed.

Lemma locate_shift fs cur loc : locate fs cur (cur + loc) = locate fs 0 loc.
Proof.
  revert cur loc. induction fs as [|f r IH]; intros cur loc; cbn [locate]; [reflexivity|].
  replace (cur + loc <? cur + slots f) with (loc <? 0 + slots f).
  - destruct (loc <? 0 + slots f) eqn:H.
    + replace (cur + loc - cur) with (loc - 0) by lia. reflexivity.
    + apply N.ltb_ge in H.
      replace (cur + loc) with (cur + slots f + (loc - slots f)) by lia.
      rewrite IH. replace loc with (0 + slots f + (loc - slots f)) at 2 by lia. rewrite IH. reflexivity.
  - destruct (N.ltb_spec loc (0 + slots f)), (N.ltb_spec (cur + loc) (cur + slots f)); try reflexivity; lia.
Qed.

Theorem location_names_its_file : forall fs i f off,
  nth_error fs i = Some f -> (off <= List.length (f_bytes f))%nat ->
  locate fs 0 (location_of fs i off) = Some (f_name f, fst (line_col (f_bytes f) off), snd (line_col (f_bytes f) off)).
Proof.
  induction fs as [|g r IH]; intros i f off Hn Hoff; [destruct i; discriminate|].
  destruct i as [|j].
  - cbn in Hn. inversion Hn; subst g. unfold location_of. cbn [base_of locate].
    assert (H : (0 + N.of_nat off <? 0 + slots f) = true) by (apply N.ltb_lt; unfold slots; lia).
    rewrite H. replace (N.to_nat (0 + N.of_nat off - 0)) with off by lia.
    destruct (line_col (f_bytes f) off). reflexivity.
  - cbn [nth_error] in Hn. unfold location_of. cbn [base_of locate].
    assert (H : (slots g + base_of r j + N.of_nat off <? 0 + slots g) = false) by (apply N.ltb_ge; lia).
    rewrite H. replace (slots g + base_of r j + N.of_nat off) with (0 + slots g + (base_of r j + N.of_nat off)) by lia.
    rewrite locate_shift. apply (IH j f off Hn Hoff).
Qed.

(* file i owns [base i, base i + length + 1) *)
Theorem file_ranges_disjoint : forall fs i j fi fj,
  nth_error fs i = Some fi -> nth_error fs j = Some fj -> (i < j)%nat ->
  base_of fs i + slots fi <= base_of fs j.
Proof.
  induction fs as [|g r IH]; intros i j fi fj Hi Hj Hlt; [destruct i; discriminate|].
  destruct j as [|j']; [lia|]. destruct i as [|i'].
  - cbn in Hi. inversion Hi; subst g. cbn [base_of]. lia.
  - cbn [nth_error base_of] in *. specialize (IH i' j' fi fj Hi Hj ltac:(lia)). lia.
Qed.

(* later files: further includes, the scratch files of ## *)
Theorem later_files_do_not_matter : forall fs more cur loc,
  cur <= loc -> loc < cur + total fs -> locate (fs ++ more) cur loc = locate fs cur loc.
Proof.
  induction fs as [|f r IH]; intros more cur loc Hc H; cbn [total fold_right] in H.
  - exfalso. lia.
  - cbn [app locate]. destruct (loc <? cur + slots f) eqn:E; [reflexivity|].
    apply N.ltb_ge in E. apply IH; [lia|]. fold (total r) in H. lia.
Qed.
