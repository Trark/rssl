(* LexerProofs.v — every token consumes at least one byte and never more than the input has; the token
   spans of a file therefore tile it exactly and error positions lie inside the file.
   In front of that: the lemmas on slen / span / drop / append that all the lexer proofs share, and the number
   recognisers cut into named parts (int_go, float_rest, float_inf, float_finish) with their unfolding equations. *)
From Coq Require Import List NArith Bool String Ascii Arith Lia.
From RV Require Import Lexer.
Import ListNotations.
Local Open Scope string_scope.

Lemma slen_cons c r : slen (String c r) = S (slen r).
Proof. reflexivity. Qed.

Lemma slen_app a b : slen (a ++ b) = slen a + slen b.
Proof. induction a as [|c a IH]; [reflexivity|]. cbn [append]. rewrite !slen_cons, IH. reflexivity. Qed.

(* Coq 8.16's String has no associativity lemma for ++ *)
Lemma sapp_assoc (a b c : string) : (a ++ b) ++ c = a ++ (b ++ c).
Proof. induction a as [|x a IH]; [reflexivity|]. cbn [append]. rewrite IH. reflexivity. Qed.

Lemma span_len p s : slen (fst (span p s)) + slen (snd (span p s)) = slen s.
Proof.
  induction s as [|c r IH]; cbn [span]; [reflexivity|].
  destruct (p c); [|reflexivity]. destruct (span p r) as [a b]. cbn [fst snd] in *. rewrite !slen_cons. lia.
Qed.

Lemma drop_len n s : slen (drop n s) = slen s - n.
Proof.
  revert s; induction n as [|n IH]; intros s; cbn [drop]; [lia|].
  destruct s as [|c r]; [reflexivity|]. rewrite IH, slen_cons. lia.
Qed.

Lemma drop_app a b : drop (slen a) (a ++ b) = b.
Proof. induction a as [|c a IH]; [reflexivity|]. cbn [append]. rewrite slen_cons. cbn [drop]. exact IH. Qed.

Lemma prefix_len p s : starts_with p s = true -> slen p <= slen s.
Proof.
  unfold starts_with. revert s; induction p as [|c p IH]; intros s H; [cbn; lia|].
  destruct s as [|d s]; cbn in H; [discriminate|].
  destruct (Ascii.ascii_dec c d); [|discriminate]. rewrite !slen_cons. specialize (IH s H). lia.
Qed.

Lemma index_of_lt c s n : index_of c s = Some n -> n < slen s.
Proof.
  revert n; induction s as [|d r IH]; intros n H; cbn in H; [discriminate|].
  destruct (Ascii.eqb c d).
  - inversion H; subst. rewrite slen_cons. lia.
  - destruct (index_of c r) as [m|]; [|discriminate]. inversion H; subst. specialize (IH m eq_refl).
    rewrite slen_cons. lia.
Qed.

Lemma line_comment_len_le s : line_comment_len s <= slen s.
Proof.
  assert (G : forall n s, slen s <= n -> line_comment_len s <= slen s).
  { induction n as [|n IH]; intros s0 Hn.
    - destruct s0; cbn in *; lia.
    - destruct s0 as [|c r]; [cbn; lia|]. cbn [line_comment_len]. rewrite slen_cons in *.
      destruct (Ascii.eqb c "010"); [lia|].
      destruct (Ascii.eqb c "013" && starts_with (String "010" EmptyString) r); [lia|].
      destruct (Ascii.eqb c "\").
      + destruct r as [|d r']; [cbn; lia|]. rewrite slen_cons in *.
        destruct (Ascii.eqb d "010"); [assert (H := IH r' ltac:(lia)); lia|].
        destruct r' as [|e r''].
        * assert (H := IH (String d EmptyString) ltac:(cbn in *; lia)). cbn in *. lia.
        * rewrite slen_cons in *. destruct (Ascii.eqb d "013" && Ascii.eqb e "010").
          -- assert (H := IH r'' ltac:(lia)). lia.
          -- assert (H := IH (String d (String e r'')) ltac:(rewrite !slen_cons; lia)). rewrite !slen_cons in H. lia.
      + assert (H := IH r ltac:(lia)). lia. }
  apply (G (slen s)). lia.
Qed.

Lemma block_end_le s n : block_end s = Some n -> n <= slen s.
Proof.
  revert n; induction s as [|c r IH]; intros n H; [discriminate|]. cbn [block_end] in H.
  destruct r as [|d r']; [discriminate|].
  destruct (Ascii.eqb c "*" && Ascii.eqb d "/").
  - inversion H; subst. rewrite !slen_cons. lia.
  - destruct (block_end (String d r')) as [q|]; [|discriminate]. inversion H; subst.
    specialize (IH q eq_refl). rewrite (slen_cons c). lia.
Qed.

Definition bounded (s : string) (r : lres) : Prop :=
  match r with
  | LOk _ n => 1 <= n <= slen s
  | LErr _ k => k <= slen s
  end.

Section Proofs.
Variable keywords : list (string * string).
Variable reserved_words : list string.
Variable symbols : list (N * string * option string * option string).
Variable int_suffixes : list (list (list N) * string).
Variable float_suffixes : list (list N * string).
Variable float_is_zero : string -> bool.
Variable utf8_ok : string -> bool.

Notation tok_at := (tok_at keywords reserved_words symbols int_suffixes float_suffixes float_is_zero utf8_ok).
Notation lex_all := (lex_all keywords reserved_words symbols int_suffixes float_suffixes float_is_zero utf8_ok).
Notation lex_file := (lex_file keywords reserved_words symbols int_suffixes float_suffixes float_is_zero utf8_ok).
Notation lex_int := (lex_int int_suffixes).
Notation lex_float := (lex_float float_suffixes float_is_zero).
Notation lex_word := (lex_word keywords reserved_words).
Notation lex_symbol := (lex_symbol symbols).
Notation int_suffix := (int_suffix int_suffixes).
Notation float_suffix := (float_suffix float_suffixes).

(* one branch of lex_int *)
Definition int_go (s : string) (skip : nat) (base : N) (dv : ascii -> option N) : lres :=
  let body := drop skip s in
  let (ds, rest) := span (fun c => match dv c with Some _ => true | None => false end) body in
  match ds with
  | EmptyString => match body with EmptyString => LErr EndOfStream (slen s) | _ => LErr UnexpectedBytes skip end
  | _ =>
      match accum base dv ds 0%N with
      | None => LErr IntegerLiteralTooLarge skip
      | Some v =>
          let suf := int_suffix rest in
          match int_token (option_map fst suf) v with
          | Some t => LOk t (skip + slen ds + match suf with Some (_, n) => n | None => 0 end)
          | None => LErr IntegerLiteralTooLarge skip
          end
      end
  end.

Lemma lex_int_unfold s :
  lex_int s =
  if starts_with "0x" s then int_go s 2%nat 16%N hex_val
  else match s with
       | String z (String c _) => if Ascii.eqb z "0" && is_octal c then int_go s 1%nat 8%N oct_val else int_go s 0%nat 10%N dec_val
       | _ => int_go s 0%nat 10%N dec_val
       end.
Proof. reflexivity. Qed.

(* lex_float behind "#INF": the suffix and the character after it *)
Definition float_finish (s : string) (text_len after : nat) (mk : fkind -> tok) : lres :=
  let suf := float_suffix (drop after s) in
  let t := mk (fkind_of (option_map fst suf)) in
  let total := (after + match suf with Some (_, n) => n | None => 0 end)%nat in
  match drop total s with
  | String c _ =>
      if is_ident_char c then (if Ascii.eqb c "x" then LErr OtherTokenBytes 0 else LErr FloatInvalidSuffix text_len)
      else LOk t total
  | EmptyString => LOk t total
  end.

(* lex_float behind mantissa and exponent *)
Definition float_inf (s : string) (mant_len : nat) (exp_len : option nat) : lres :=
  let text_len := (mant_len + match exp_len with Some n => n | None => 0 end)%nat in
  let text := String.substring 0 text_len s in
  let inf := starts_with "#INF" (drop text_len s) in
  if inf && (float_is_zero text || match exp_len with Some _ => true | None => false end)
  then LErr FloatInvalidSuffix text_len
  else float_finish s text_len (if inf then (text_len + 4)%nat else text_len) (fun k => if inf then TInf k else TFloat k text).

(* lex_float behind the mantissa *)
Definition float_rest (s : string) (has_fraction : bool) (mant_len : nat) : lres :=
  let exp_len := lex_exponent (drop mant_len s) in
  match has_fraction, exp_len with
  | false, None => LErr OtherTokenBytes 0
  | _, _ => float_inf s mant_len exp_len
  end.

Lemma lex_float_unfold s :
  lex_float s =
  let (whole, r1) := span is_digit s in
  let (has_fraction, mant_len) :=
    match r1 with
    | String d r2 => if Ascii.eqb d "." then let (fr, _) := span is_digit r2 in (true, (slen whole + 1 + slen fr)%nat)
                     else (false, slen whole)
    | EmptyString => (false, slen whole)
    end in
  float_rest s has_fraction mant_len.
Proof. reflexivity. Qed.

Lemma tok_at_digit inc c r : is_digit c = true ->
  tok_at inc (String c r) = match lex_float (String c r) with LErr OtherTokenBytes _ => lex_int (String c r) | x => x end.
Proof. intros H. cbn [Lexer.tok_at]. rewrite H. reflexivity. Qed.

Lemma match_chars_len alts s : match_chars alts s = true -> List.length alts <= slen s.
Proof.
  revert s; induction alts as [|a r IH]; intros s H; [cbn; lia|].
  destruct s as [|c t]; cbn in H; [discriminate|]. apply andb_true_iff in H as [_ H].
  specialize (IH t H). cbn [List.length]. rewrite slen_cons. lia.
Qed.

Lemma int_suffix_len s k n : int_suffix s = Some (k, n) -> n <= slen s.
Proof.
  unfold Lexer.int_suffix. destruct (find _ int_suffixes) as [[alts k']|] eqn:F; [|discriminate].
  cbn. intros H; inversion H; subst. apply find_some in F as [_ F]. apply match_chars_len. exact F.
Qed.

Lemma float_suffix_len s k n : float_suffix s = Some (k, n) -> n = 1 /\ 1 <= slen s.
Proof.
  unfold Lexer.float_suffix. destruct s as [|c r]; [discriminate|].
  destruct (find _ float_suffixes) as [[cs k']|]; [|discriminate]. cbn [option_map]. intros H; inversion H; subst.
  rewrite slen_cons. lia.
Qed.

Lemma lex_exponent_len s n : lex_exponent s = Some n -> 1 <= n <= slen s.
Proof.
  unfold lex_exponent. destruct s as [|c r]; [discriminate|].
  destruct (Ascii.eqb c "e" || Ascii.eqb c "E"); [|discriminate].
  set (p := match r with String d r' => if (Ascii.eqb d "+" || Ascii.eqb d "-")%bool then (1, r') else (0, r) | EmptyString => (0, r) end).
  assert (Hp : fst p + slen (snd p) = slen r).
  { unfold p. destruct r as [|d r']; [reflexivity|]. destruct (Ascii.eqb d "+" || Ascii.eqb d "-"); cbn [fst snd]; rewrite ?slen_cons; lia. }
  destruct p as [sg r1]. cbn [fst snd] in Hp.
  assert (L := span_len is_digit r1). destruct (span is_digit r1) as [ds rest]. cbn [fst snd] in L.
  destruct ds as [|d0 ds']; [discriminate|].
  destruct (accum 10 dec_val (String d0 ds') 0); [|discriminate].
  intros H; inversion H; subst. rewrite slen_cons in *. lia.
Qed.

Lemma lex_word_bounded c r : is_alpha_ c = true -> bounded (String c r) (lex_word (String c r)).
Proof.
  intros Ha. unfold Lexer.lex_word. assert (L := span_len is_ident_char (String c r)).
  assert (Hi : is_ident_char c = true) by (unfold is_ident_char; rewrite Ha; reflexivity).
  cbn [span] in *. rewrite Hi in *.
  destruct (span is_ident_char r) as [a b]. cbn [fst snd] in L. cbn [bounded]. rewrite !slen_cons in *. lia.
Qed.

Lemma lex_quoted_bounded close mk e1 e2 e3 c r :
  bounded (String c r) (lex_quoted utf8_ok close mk e1 e2 e3 (String c r)).
Proof.
  unfold lex_quoted. cbn [drop]. destruct (index_of close r) as [pos|] eqn:I; [|cbn [bounded]; lia].
  apply index_of_lt in I.
  destruct (negb (utf8_ok _)); [cbn [bounded]; lia|]. destruct (contains _ _); [cbn [bounded]; lia|].
  cbn [bounded]. rewrite slen_cons. lia.
Qed.

Lemma lex_symbol_bounded c r t n : lex_symbol c r = Some (t, n) -> 1 <= n <= slen (String c r).
Proof.
  unfold Lexer.lex_symbol. destruct (find _ symbols) as [[[[b t1] teq] tdbl]|]; [|discriminate].
  rewrite slen_cons. destruct r as [|d r']; [intros H; injection H as _ <-; lia|]. rewrite slen_cons.
  destruct teq, tdbl; repeat match goal with |- context [if ?x then _ else _] => destruct x end;
    intros H; injection H as _ <-; lia.
Qed.

Lemma int_go_bounded s skip base dv : skip <= slen s -> bounded s (int_go s skip base dv).
Proof.
  intros Hs. unfold int_go. cbv zeta.
  assert (L := span_len (fun c0 => match dv c0 with Some _ => true | None => false end) (drop skip s)).
  rewrite drop_len in L.
  destruct (span _ (drop skip s)) as [ds rest]. cbn [fst snd] in L.
  destruct ds as [|d0 ds'].
  - destruct (drop skip s); cbn [bounded]; lia.
  - destruct (accum base dv (String d0 ds') 0) as [v|]; [|cbn [bounded]; lia].
    destruct (int_suffix rest) as [[k m]|] eqn:Sf.
    + apply int_suffix_len in Sf. cbn [option_map fst].
      destruct (int_token (Some k) v); cbn [bounded]; rewrite slen_cons in *; lia.
    + cbn [option_map]. destruct (int_token None v); cbn [bounded]; rewrite slen_cons in *; lia.
Qed.

Lemma lex_int_bounded s : bounded s (lex_int s).
Proof.
  rewrite lex_int_unfold. destruct (starts_with "0x" s) eqn:P.
  - apply int_go_bounded. apply prefix_len in P. exact P.
  - destruct s as [|c [|d r]]; try (apply int_go_bounded; lia).
    destruct (Ascii.eqb c "0" && is_octal d); apply int_go_bounded; rewrite !slen_cons; lia.
Qed.

Lemma float_finish_bounded s tl after mk : tl <= slen s -> 1 <= after <= slen s -> bounded s (float_finish s tl after mk).
Proof.
  intros Ht Ha. unfold float_finish. cbv zeta. set (total := after + _).
  assert (Hn : 1 <= total <= slen s).
  { unfold total. destruct (float_suffix (drop after s)) as [[k n]|] eqn:Sf; [|lia].
    apply float_suffix_len in Sf as [-> Sf]. rewrite drop_len in Sf. lia. }
  destruct (drop total s) as [|c0 ?]; [cbn [bounded]; lia|].
  destruct (is_ident_char c0); [destruct (Ascii.eqb c0 "x")|]; cbn [bounded]; lia.
Qed.

Lemma float_inf_bounded s ml e :
  1 <= ml -> ml + match e with Some n => n | None => 0 end <= slen s -> bounded s (float_inf s ml e).
Proof.
  intros H1 H2. unfold float_inf. cbv zeta.
  destruct (starts_with "#INF" (drop _ s)) eqn:I.
  - apply prefix_len in I. rewrite drop_len in I. change (slen "#INF") with 4 in I.
    cbn [andb]. destruct (float_is_zero _ || _); [cbn [bounded]; lia | apply float_finish_bounded; lia].
  - apply float_finish_bounded; lia.
Qed.

Lemma float_rest_bounded s hf ml : 1 <= ml <= slen s -> bounded s (float_rest s hf ml).
Proof.
  intros H. unfold float_rest. cbv zeta.
  destruct (lex_exponent (drop ml s)) as [en|] eqn:E.
  - apply lex_exponent_len in E. rewrite drop_len in E. destruct hf; apply float_inf_bounded; lia.
  - destruct hf; [apply float_inf_bounded; lia | cbn [bounded]; lia].
Qed.

Lemma lex_float_bounded c r : is_digit c = true -> bounded (String c r) (lex_float (String c r)).
Proof.
  intros Hd. rewrite lex_float_unfold. set (s := String c r).
  assert (Lw := span_len is_digit s). assert (Hw : 1 <= slen (fst (span is_digit s))).
  { unfold s. cbn [span]. rewrite Hd. destruct (span is_digit r). cbn [fst]. rewrite slen_cons. lia. }
  destruct (span is_digit s) as [whole r1]. cbn [fst snd] in *.
  destruct r1 as [|d r2]; [apply float_rest_bounded; lia|].
  destruct (Ascii.eqb d "."); [|apply float_rest_bounded; lia].
  assert (Lf := span_len is_digit r2). destruct (span is_digit r2) as [fr rest]. cbn [fst snd] in *.
  apply float_rest_bounded. rewrite slen_cons in *. lia.
Qed.

Theorem tok_at_bounded inc s : s <> EmptyString -> bounded s (tok_at inc s).
Proof.
  destruct s as [|c r]; [congruence|]. intros _. cbn [Lexer.tok_at].
  destruct (is_digit c) eqn:Hd.
  { assert (F := lex_float_bounded c r Hd). assert (I := lex_int_bounded (String c r)).
    destruct (lex_float (String c r)) as [t n|e k]; [exact F|]. destruct e; try exact F. exact I. }
  destruct (is_alpha_ c) eqn:Ha; [apply lex_word_bounded; exact Ha|].
  destruct (inc && Ascii.eqb c "<"); [apply lex_quoted_bounded|].
  destruct (Ascii.eqb c " " || Ascii.eqb c "009"); [cbn [bounded]; rewrite slen_cons; lia|].
  destruct (Ascii.eqb c "010"); [cbn [bounded]; rewrite slen_cons; lia|].
  destruct (Ascii.eqb c "013").
  { destruct r as [|d r']; [cbn [bounded]; lia|]. destruct (Ascii.eqb d "010"); cbn [bounded]; rewrite ?slen_cons; lia. }
  destruct (Ascii.eqb c "\").
  { destruct r as [|d r']; [cbn [bounded]; lia|]. destruct (Ascii.eqb d "010"); [cbn [bounded]; rewrite !slen_cons; lia|].
    destruct r' as [|e r'']; [cbn [bounded]; lia|].
    destruct (Ascii.eqb d "013" && Ascii.eqb e "010"); cbn [bounded]; rewrite ?slen_cons; lia. }
  destruct (Ascii.eqb c "/" && starts_with "/" r) eqn:C1.
  { apply andb_true_iff in C1 as [_ C1]. apply prefix_len in C1. change (slen "/") with 1 in C1.
    assert (L := line_comment_len_le (drop 1 r)). rewrite drop_len in L. cbn [bounded]. rewrite slen_cons. lia. }
  destruct (Ascii.eqb c "/" && starts_with "*" r) eqn:C2.
  { apply andb_true_iff in C2 as [_ C2]. apply prefix_len in C2. change (slen "*") with 1 in C2.
    destruct (block_end (drop 1 r)) as [n|] eqn:B; [|cbn [bounded]; lia].
    apply block_end_le in B. rewrite drop_len in B. cbn [bounded]. rewrite slen_cons. lia. }
  destruct (Ascii.eqb c """"); [apply lex_quoted_bounded|].
  destruct (Ascii.eqb c "<"); [cbn [bounded]; rewrite slen_cons; lia|].
  destruct (Ascii.eqb c ">"); [cbn [bounded]; rewrite slen_cons; lia|].
  destruct (lex_symbol c r) as [[t n]|] eqn:Sy; [|cbn [bounded]; lia].
  apply lex_symbol_bounded in Sy. exact Sy.
Qed.

Fixpoint tiles (start : nat) (ts : list (tok * nat * nat)) (stop : nat) : Prop :=
  match ts with
  | [] => start = stop
  | (_, a, b) :: r => a = start /\ a <= b /\ tiles b r stop
  end.

Lemma tiles_app start ts1 ts2 mid stop : tiles start ts1 mid -> tiles mid ts2 stop -> tiles start (ts1 ++ ts2) stop.
Proof.
  revert start; induction ts1 as [|[[t a] b] r IH]; intros start H1 H2; cbn in *; [subst; exact H2|].
  destruct H1 as (-> & Hab & H1). repeat split; [exact Hab|]. apply IH; assumption.
Qed.

Lemma lex_all_spec fuel : forall s off last acc start,
  slen s < fuel -> tiles start (rev acc) off ->
  match lex_all fuel s off last acc with
  | SOk ts => tiles start ts (off + slen s)
  | SErr _ k => k <= off + slen s
  end.
Proof.
  induction fuel as [|fuel IH]; intros s off last acc start Hf Hacc; [lia|].
  cbn [Lexer.lex_all]. destruct s as [|c r].
  - cbn [slen String.length]. rewrite Nat.add_0_r. destruct last; [exact Hacc|].
    cbn [rev]. eapply tiles_app; [exact Hacc|]. cbn. auto.
  - assert (B := tok_at_bounded false (String c r) ltac:(congruence)).
    destruct (tok_at false (String c r)) as [t n|e k]; cbn [bounded] in B; [|lia].
    specialize (IH (drop n (String c r)) (off + n) (match t with TEndline => true | _ => false end) ((t, off, off + n) :: acc) start).
    rewrite drop_len in IH. replace (off + n + (slen (String c r) - n)) with (off + slen (String c r)) in IH by lia.
    apply IH; [lia|]. cbn [rev]. eapply tiles_app; [exact Hacc|]. cbn. repeat split; lia.
Qed.

Lemma lex_file_spec s :
  match lex_file s with SOk ts => tiles 0 ts (slen s) | SErr _ k => k <= slen s end.
Proof. exact (lex_all_spec (S (slen s)) s 0 true [] 0 (Nat.lt_succ_diag_r _) eq_refl). Qed.

Theorem lex_tiles (s : string) ts : lex_file s = SOk ts -> tiles 0 ts (slen s).
Proof. intros H. assert (G := lex_file_spec s). rewrite H in G. exact G. Qed.

Theorem lex_error_in_file (s : string) e k : lex_file s = SErr e k -> k <= slen s.
Proof. intros H. assert (G := lex_file_spec s). rewrite H in G. exact G. Qed.

End Proofs.

Arguments tok_at_digit [keywords reserved_words symbols int_suffixes float_suffixes float_is_zero utf8_ok].
Arguments tok_at_bounded [keywords reserved_words symbols int_suffixes float_suffixes float_is_zero utf8_ok].
