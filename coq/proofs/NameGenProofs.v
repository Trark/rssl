(* NameGenProofs.v — the name generator terminates, hands out pairwise distinct non-reserved names within a
   scope, and keeps every name that is unique in its scope and not reserved.  The pass over the locals succeeds and
   gives no local a name already in use, so `build` always returns (build_total). *)
From Coq Require Import List NArith Bool String Ascii Arith Lia Permutation DecimalString DecimalN.
From RV Require Import Wire ListFacts Perm PermProofs NameGen.
Import ListNotations.
Local Open Scope string_scope.

Lemma show_N_inj a b : show_N a = show_N b -> a = b.
Proof.
  unfold show_N. intros H. apply DecimalN.Unsigned.to_uint_inj.
  assert (Na : N.to_uint a <> Decimal.Nil) by (destruct a; cbn; [discriminate | apply DecimalPos.Unsigned.to_uint_nonnil]).
  assert (Nb : N.to_uint b <> Decimal.Nil) by (destruct b; cbn; [discriminate | apply DecimalPos.Unsigned.to_uint_nonnil]).
  assert (Ha := NilZero.usu _ Na). assert (Hb := NilZero.usu _ Nb). rewrite H in Ha. congruence.
Qed.

Lemma append_inv_head s a b : s ++ a = s ++ b -> a = b.
Proof. induction s as [|c s IH]; cbn; intros H; [exact H|]. inversion H. auto. Qed.

Lemma cand_inj name k k' : cand name k = cand name k' -> k = k'.
Proof. unfold cand. intros H. apply append_inv_head in H. apply append_inv_head in H. apply show_N_inj. exact H. Qed.

Lemma in_str_In x l : in_str x l = true <-> In x l.
Proof. apply (existsb_eqb_In String.eqb String.eqb_eq). Qed.

Lemma in_str_false x l : in_str x l = false <-> ~ In x l.
Proof. rewrite <- in_str_In. destruct (in_str x l); split; congruence. Qed.

(* pigeonhole: among |l|+1 consecutive candidates one is not in l *)
Lemma pigeonhole name (l : list string) k0 :
  ~ (forall j, (j <= List.length l)%nat -> In (cand name (k0 + N.of_nat j)) l).
Proof.
  intros H.
  set (cs := map (fun j => cand name (k0 + N.of_nat j)) (seq 0 (S (List.length l)))).
  assert (Hnd : NoDup cs).
  { unfold cs. apply FinFun.Injective_map_NoDup; [|apply seq_NoDup].
    intros a b E. apply cand_inj in E. lia. }
  assert (Hinc : incl cs l).
  { intros c Hc. unfold cs in Hc. apply in_map_iff in Hc as (j & <- & Hj). apply in_seq in Hj. apply H. lia. }
  assert (L := NoDup_incl_length Hnd Hinc). unfold cs in L. rewrite map_length, seq_length in L. lia.
Qed.

Lemma cand_shift name k j : cand name (k + 1 + N.of_nat j) = cand name (k + N.of_nat (S j)).
Proof. f_equal. lia. Qed.

(* it returns the first candidate from k on that is free, if one comes within the fuel *)
Lemma find_free_spec free name fuel : forall k,
  match find_free free name k fuel with
  | Some c => exists d, (d < fuel)%nat /\ c = cand name (k + N.of_nat d) /\ free c = true /\
                        forall j, (j < d)%nat -> free (cand name (k + N.of_nat j)) = false
  | None => forall j, (j < fuel)%nat -> free (cand name (k + N.of_nat j)) = false
  end.
Proof.
  induction fuel as [|f IH]; intros k; cbn [find_free]; [intros j Hj; lia|].
  destruct (free (cand name k)) eqn:F.
  - exists 0%nat. rewrite N.add_0_r. repeat split; [lia | exact F | intros j Hj; lia].
  - specialize (IH (k + 1)%N). destruct (find_free free name (k + 1) f) as [c|].
    + destruct IH as (d & Hd & -> & Hf & Hb). exists (S d). rewrite <- cand_shift. repeat split; [lia | exact Hf |].
      intros [|j] Hj; [rewrite N.add_0_r; exact F | rewrite <- cand_shift; apply Hb; lia].
    + intros [|j] Hj; [rewrite N.add_0_r; exact F | rewrite <- cand_shift; apply IH; lia].
Qed.

Lemma find_free_ext f g name k fuel : (forall c, f c = g c) -> find_free f name k fuel = find_free g name k fuel.
Proof.
  intros E. revert k; induction fuel as [|fu IH]; intros k; cbn [find_free]; [reflexivity|].
  rewrite E. destruct (g (cand name k)); [reflexivity | apply IH].
Qed.

(* the search from 0 for a name not in l ends within |l|+1 probes (pigeonhole), at the least such index *)
Lemma find_free_notin name (l : list string) fuel : (List.length l < fuel)%nat ->
  exists j, find_free (fun c => negb (in_str c l)) name 0 fuel = Some (cand name j) /\
            ~ In (cand name j) l /\ forall i, (i < j)%N -> In (cand name i) l.
Proof.
  intros Hf. assert (Sp := find_free_spec (fun c => negb (in_str c l)) name fuel 0). cbv beta in Sp.
  destruct (find_free _ name 0 fuel) as [c|].
  - destruct Sp as (d & _ & -> & Hfree & Hb). exists (N.of_nat d). rewrite N.add_0_l in *. split; [reflexivity|]. split.
    + apply in_str_false, negb_true_iff, Hfree.
    + intros i Hi. specialize (Hb (N.to_nat i) ltac:(lia)). rewrite N.add_0_l, N2Nat.id in Hb.
      apply in_str_In, negb_false_iff, Hb.
  - exfalso. apply (pigeonhole name l 0). intros j Hj. apply in_str_In, negb_false_iff, Sp. lia.
Qed.

(* the search of the local pass looks at two lists: it is the search of the global pass over both *)
Lemma find_free2 (a b : list string) name :
  find_free (fun c => negb (in_str c a) && negb (in_str c b)) name 0 (S (List.length a + List.length b)) =
  find_free (fun c => negb (in_str c (a ++ b))) name 0 (S (List.length (a ++ b))).
Proof. rewrite app_length. apply find_free_ext. intros c. unfold in_str. rewrite existsb_app, negb_orb. reflexivity. Qed.

Definition entry_leb (a b : entry) : bool := String.leb (e_name a) (e_name b).

Lemma sort_entries_isort l : sort_entries l = isort entry_leb l.
Proof.
  apply fold_insert_isort. intros x m. induction m as [|y m IH]; cbn [insert_entry insert]; [|rewrite IH]; reflexivity.
Qed.

Lemma sort_entries_perm l : Permutation (sort_entries l) l.
Proof. rewrite sort_entries_isort. apply isort_perm. Qed.

Section Scope.
Variable reserved : list string.

Notation is_kept := (is_kept reserved).
Notation kept_names := (kept_names reserved).
Notation gen_entries := (gen_entries reserved).
Notation assign_scope := (assign_scope reserved).
Notation kept_assignments := (kept_assignments reserved).

(* what a run of the generator adds: pairwise distinct names, none of them used before *)
Definition fresh_for (used : list string) (news : list (sym * string)) : Prop :=
  NoDup (map snd news) /\ forall n, In n (map snd news) -> ~ In n used.

Lemma fresh_for_nil used : fresh_for used [].
Proof. split; [constructor | intros n []]. Qed.

Lemma fresh_for_one used s c : ~ In c used -> fresh_for used [(s, c)].
Proof. intros H. split; [repeat constructor; intros [] | intros n [<-|[]]; exact H]. Qed.

Lemma fresh_for_app used n1 n2 : fresh_for used n1 -> fresh_for (map snd n1 ++ used) n2 -> fresh_for used (n2 ++ n1).
Proof.
  unfold fresh_for. intros [D1 F1] [D2 F2]. rewrite map_app. split.
  - apply nodup_app_intro; [exact D2 | exact D1|]. intros x Hx Hin. apply (F2 x Hx), in_app_iff. left. exact Hin.
  - intros n Hn Hu. apply in_app_iff in Hn as [Hn|Hn]; [apply (F2 n Hn), in_app_iff; right; exact Hu | exact (F1 n Hn Hu)].
Qed.

Lemma gen_syms_spec name syms : forall used out,
  exists news, gen_syms name syms used out = Some ((map snd news ++ used)%list, (news ++ out)%list) /\
               fresh_for used news /\ map fst (rev news) = syms.
Proof.
  induction syms as [|s r IH]; intros used out; cbn [NameGen.gen_syms].
  - exists []. split; [reflexivity|]. split; [apply fresh_for_nil | reflexivity].
  - destruct (find_free_notin name used (S (List.length used)) (Nat.lt_succ_diag_r _)) as (j & -> & Hj & _).
    set (c := cand name j) in *.
    destruct (IH (c :: used) ((s, c) :: out)) as (news & -> & Hf & Hfst).
    exists (news ++ [(s, c)])%list. rewrite map_app, <- !app_assoc. split; [reflexivity|]. split.
    + apply (fresh_for_app used [(s, c)] news (fresh_for_one used s c Hj) Hf).
    + rewrite rev_app_distr. cbn [rev app map fst]. f_equal. exact Hfst.
Qed.

Lemma gen_entries_spec es : forall used out,
  exists news, gen_entries es used out = Some ((map snd news ++ used)%list, (news ++ out)%list) /\
               fresh_for used news /\
               (forall e s, In e es -> is_kept e = false -> In s (e_syms e) -> In s (map fst news)).
Proof.
  induction es as [|e r IH]; intros used out; cbn [NameGen.gen_entries].
  - exists []. split; [reflexivity|]. split; [apply fresh_for_nil | intros e s []].
  - destruct (is_kept e) eqn:K.
    + destruct (IH used out) as (news & -> & Hf & Hcov). exists news. repeat split; try apply Hf.
      intros e' s [<-|He'] Hk Hs; [congruence | eapply Hcov; eassumption].
    + destruct (gen_syms_spec (e_name e) (e_syms e) used out) as (n1 & -> & Hf1 & Hs1).
      destruct (IH (map snd n1 ++ used)%list (n1 ++ out)%list) as (n2 & -> & Hf2 & Hcov).
      exists (n2 ++ n1)%list. rewrite !map_app, <- !app_assoc. split; [reflexivity|]. split.
      * apply fresh_for_app; assumption.
      * intros e' s [<-|He'] Hk Hs; apply in_app_iff.
        -- right. rewrite <- Hs1 in Hs. rewrite map_rev in Hs. apply in_rev in Hs. exact Hs.
        -- left. eapply Hcov; eassumption.
Qed.

Lemma is_kept_iff e : is_kept e = true <-> (exists s, e_syms e = [s]) /\ ~ In (e_name e) reserved.
Proof.
  unfold NameGen.is_kept. rewrite <- in_str_false. destruct (e_syms e) as [|s [|s2 t]].
  - split; [discriminate | intros [[s Hs] _]; discriminate].
  - rewrite negb_true_iff. split; [intros H; split; [exists s; reflexivity | exact H] | intros [_ H]; exact H].
  - split; [discriminate | intros [[s' Hs] _]; discriminate].
Qed.

Lemma kept_assignments_in es s n :
  In (s, n) (kept_assignments es) <-> exists e, In e es /\ is_kept e = true /\ In s (e_syms e) /\ n = e_name e.
Proof.
  unfold NameGen.kept_assignments. rewrite in_flat_map. split; intros (e & He & H); exists e; (split; [exact He|]).
  - destruct (is_kept e); [|destruct H]. apply in_map_iff in H as (s' & E & Hs). inversion E; subst. auto.
  - destruct H as (-> & Hs & ->). apply in_map_iff. exists s. auto.
Qed.

Lemma kept_assignments_names es : map snd (kept_assignments es) = kept_names es.
Proof.
  unfold NameGen.kept_assignments, NameGen.kept_names. induction es as [|e r IH]; [reflexivity|].
  cbn [flat_map filter]. destruct (is_kept e) eqn:K; [|exact IH].
  apply is_kept_iff in K as [[s ->] _]. cbn [map app snd]. f_equal. exact IH.
Qed.

Lemma kept_not_reserved es n : In n (kept_names es) -> ~ In n reserved.
Proof.
  unfold NameGen.kept_names. intros H. apply in_map_iff in H as (e & <- & He). apply filter_In in He as [_ K].
  apply is_kept_iff, K.
Qed.

Theorem assign_scope_total es : assign_scope es <> None.
Proof.
  unfold NameGen.assign_scope.
  destruct (gen_entries_spec (sort_entries es) (kept_names es ++ reserved) []) as (news & -> & _). discriminate.
Qed.

Theorem assign_scope_spec es K G :
  NoDup (map e_name es) -> assign_scope es = Some (K, G) ->
  NoDup (map snd (K ++ G)) /\
  (forall n, In n (map snd (K ++ G)) -> ~ In n reserved) /\
  (forall e s, In e es -> e_syms e = [s] -> ~ In (e_name e) reserved -> In (s, e_name e) K) /\
  (forall e s, In e es -> In s (e_syms e) -> In s (map fst (K ++ G))).
Proof.
  intros Hnd H. unfold NameGen.assign_scope in H.
  destruct (gen_entries_spec (sort_entries es) (kept_names es ++ reserved) []) as (news & E & [Hnd2 Hfresh] & Hcov).
  rewrite E in H. inversion H; subst; clear H E. rewrite app_nil_r, map_app, kept_assignments_names, map_rev.
  repeat split.
  - apply nodup_app_intro.
    + apply nodup_map_filter, Hnd.
    + apply NoDup_rev. exact Hnd2.
    + intros x Hx Hin. apply in_rev in Hin. apply (Hfresh x Hin). apply in_app_iff. left. exact Hx.
  - intros n Hn. apply in_app_iff in Hn as [Hn|Hn].
    + eapply kept_not_reserved; exact Hn.
    + apply in_rev in Hn. intros Hr. apply (Hfresh n Hn). apply in_app_iff. right. exact Hr.
  - intros e s He Hs Hr. apply kept_assignments_in. exists e. rewrite Hs. repeat split; [exact He | | left; reflexivity].
    apply is_kept_iff. split; [exists s; exact Hs | exact Hr].
  - intros e s He Hs. rewrite map_app. apply in_app_iff. destruct (is_kept e) eqn:K.
    + left. apply in_map_iff. exists (s, e_name e). split; [reflexivity|]. apply kept_assignments_in. exists e. auto.
    + right. rewrite map_rev. apply -> in_rev. eapply Hcov; [|exact K | exact Hs].
      apply (Permutation_in _ (Permutation_sym (sort_entries_perm es))). exact He.
Qed.

(* one local: it gets a name that was not used, and the used names only grow *)
Lemma assign_locals_cons id name r all used out :
  exists n used', assign_locals ((id, name) :: r) all used out = assign_locals r all used' ((id, n) :: out) /\
                  incl used used' /\ ~ In n used.
Proof.
  cbn [NameGen.assign_locals]. destruct (in_str name used) eqn:U.
  - rewrite find_free2. destruct (find_free_notin name (all ++ used) _ (Nat.lt_succ_diag_r _)) as (j & -> & Fc & _).
    exists (cand name j), (cand name j :: used). split; [reflexivity|]. split; [apply incl_tl, incl_refl|].
    intros Hu. apply Fc, in_app_iff. right. exact Hu.
  - exists name, used. split; [reflexivity|]. split; [apply incl_refl | apply in_str_false, U].
Qed.

(* the pass succeeds and assigns no name of `used`; `build` passes the global, generated and reserved names as `used` *)
Lemma assign_locals_spec locals : forall all used out,
  exists res, assign_locals locals all used out = Some res /\
              forall id n, In (id, n) res -> In (id, n) out \/ ~ In n used.
Proof.
  induction locals as [|[id0 name] r IH]; intros all used out.
  - exists (rev out). split; [reflexivity|]. intros id n Hin. left. apply in_rev. exact Hin.
  - destruct (assign_locals_cons id0 name r all used out) as (n0 & used' & -> & Hinc & Hn0).
    destruct (IH all used' ((id0, n0) :: out)) as (res & -> & Hres).
    exists res. split; [reflexivity|]. intros id n Hin. destruct (Hres id n Hin) as [[E|Ho]|Hn].
    + inversion E; subst. right. exact Hn0.
    + left. exact Ho.
    + right. intros Hu. apply Hn, Hinc, Hu.
Qed.

Definition scope_out (es : list entry) : list (sym * string) * list (sym * string) :=
  match assign_scope es with Some kg => kg | None => ([], []) end.

Lemma assign_scopes_flat scopes :
  assign_scopes reserved scopes =
    Some (flat_map (fun es => fst (scope_out es) ++ snd (scope_out es)) scopes,
          flat_map (fun es => map snd (snd (scope_out es))) scopes)%list.
Proof.
  induction scopes as [|es r IH]; cbn [NameGen.assign_scopes flat_map]; [reflexivity|]. rewrite IH. unfold scope_out.
  destruct (assign_scope es) as [[k g]|] eqn:A; [|destruct (assign_scope_total es A)]. cbn [fst snd].
  rewrite <- app_assoc. reflexivity.
Qed.

Theorem build_total scopes locals : build reserved scopes locals <> None.
Proof.
  unfold NameGen.build. destruct (assign_scopes reserved scopes) as [[globals gens]|] eqn:E.
  - destruct (assign_locals_spec locals (map snd locals) (gvar_names globals ++ gens ++ reserved) []) as (res & -> & _).
    discriminate.
  - rewrite assign_scopes_flat in E. discriminate.
Qed.

End Scope.
