(* BindingsProofs.v — the slot allocator, for any object-kind type and any cost / buffer-address tables.  A step is read
   in the terms of `bindable` / `takes_inline` (step_cases); one invariant, `accounts`, says that the bindings handed out
   between two states tile the slots and inline bytes of every group; tiling, completeness and the inline blocks are
   read off it. *)
From Coq Require Import List NArith Bool Lia Permutation Sorted.
From RV Require Import Perm PermProofs ListFacts Bindings.
Import ListNotations.
Local Open Scope N_scope.

(* the ranges, in order, tile a segment that begins at start *)
Fixpoint tiles (start : N) (l : list (N * N)) : Prop :=
  match l with
  | [] => True
  | (s, len) :: r => s = start /\ tiles (start + len) r
  end.

Fixpoint total (l : list (N * N)) : N :=
  match l with [] => 0 | (_, len) :: r => len + total r end.

Lemma tiles_app s l1 l2 : tiles s (l1 ++ l2) <-> tiles s l1 /\ tiles (s + total l1) l2.
Proof.
  revert s; induction l1 as [|[a la] l1 IH]; intros s; cbn [app tiles total].
  - rewrite N.add_0_r; tauto.
  - rewrite IH, N.add_assoc; tauto.
Qed.

Lemma total_app l1 l2 : total (l1 ++ l2) = total l1 + total l2.
Proof. induction l1 as [|[a la] l1 IH]; cbn [app total]; lia. Qed.

Lemma total_const c l : (forall a la, In (a, la) l -> la = c) -> total l = c * N.of_nat (List.length l).
Proof.
  induction l as [|[a la] l IH]; intros H; [cbn; lia|]. cbn [total List.length].
  rewrite (H a la (or_introl eq_refl)), IH by (intros b lb Hb; apply (H b lb); right; exact Hb). lia.
Qed.

(* every range starts at or after its predecessors' ends: no overlap *)
Lemma tiles_ordered s l1 a la l2 b lb l3 :
  tiles s (l1 ++ (a, la) :: l2 ++ (b, lb) :: l3) -> a + la <= b.
Proof.
  intros H. apply tiles_app in H as [_ H]. cbn [tiles] in H. destruct H as [-> H].
  apply tiles_app in H as [_ H]. cbn [tiles] in H. destruct H as [-> _]. lia.
Qed.

Lemma tiles_bounds s l a la : tiles s l -> In (a, la) l -> s <= a /\ a + la <= s + total l.
Proof.
  revert s; induction l as [|[b lb] l IH]; intros s H Hin; [destruct Hin|].
  cbn [tiles total] in *. destruct H as [-> H]. destruct Hin as [E|Hin].
  - inversion E; subst; lia.
  - specialize (IH _ H Hin). lia.
Qed.

(* no gap: every slot of [s, s + total) belongs to some range *)
Lemma tiles_cover s l x : tiles s l -> s <= x < s + total l ->
  exists a la, In (a, la) l /\ a <= x < a + la.
Proof.
  revert s; induction l as [|[b lb] l IH]; intros s H Hx; cbn [tiles total] in *; [lia|].
  destruct H as [-> H]. destruct (N.ltb_spec x (s + lb)).
  - exists s, lb; split; [left; reflexivity | lia].
  - destruct (IH (s + lb) H) as (a & la & Hin & Ha); [lia|]. exists a, la; split; [right; exact Hin | exact Ha].
Qed.

Lemma sort_blocks_isort l : sort_blocks l = isort block_leb l.
Proof.
  apply fold_insert_isort. intros x m. induction m as [|y m IH]; cbn [insert_block insert]; [|rewrite IH]; reflexivity.
Qed.

Definition bset (b : block) : N := fst (fst b).

(* one component of a lexicographic comparison *)
Lemma lex_leb_step x y (b : bool) (P : Prop) : (b = true <-> P) ->
  (if x <? y then true else if y <? x then false else b) = true <-> x < y \/ (x = y /\ P).
Proof.
  intros H. destruct (N.ltb_spec x y); [split; [left; assumption | reflexivity]|].
  destruct (N.ltb_spec y x); [split; [discriminate | lia]|].
  rewrite H. split; [right; split; [lia | assumption] | intros [L|[_ Q]]; [lia | exact Q]].
Qed.

(* the derived order of (set, api_location, size_in_bytes), spelt out *)
Lemma block_leb_iff s1 l1 z1 s2 l2 z2 :
  block_leb (s1, l1, z1) (s2, l2, z2) = true <-> s1 < s2 \/ (s1 = s2 /\ (l1 < l2 \/ (l1 = l2 /\ z1 <= z2))).
Proof. cbn [block_leb]. apply lex_leb_step, lex_leb_step, N.leb_le. Qed.

Lemma block_leb_total a b : block_leb a b = true \/ block_leb b a = true.
Proof. destruct a as [[s1 l1] z1], b as [[s2 l2] z2]. rewrite !block_leb_iff. lia. Qed.

Lemma block_leb_trans a b c : block_leb a b = true -> block_leb b c = true -> block_leb a c = true.
Proof. destruct a as [[s1 l1] z1], b as [[s2 l2] z2], c as [[s3 l3] z3]. rewrite !block_leb_iff. lia. Qed.

Lemma block_le_set a b : block_leb a b = true -> bset a <= bset b.
Proof. destruct a as [[s1 l1] z1], b as [[s2 l2] z2]. rewrite block_leb_iff. unfold bset. cbn [fst]. lia. Qed.

Lemma sorted_nodup_strict l :
  StronglySorted (le_by _ block_leb) l -> NoDup (map bset l) -> StronglySorted (fun a b => bset a < bset b) l.
Proof.
  induction 1 as [|x l Hs IH Hall]; intros Hnd; [constructor|].
  cbn [map] in Hnd. inversion Hnd as [|? ? Hnotin Hnd']; subst.
  constructor; [apply IH; exact Hnd'|].
  rewrite Forall_forall in *. intros y Hy.
  assert (bset x <= bset y) by (apply block_le_set, Hall, Hy).
  assert (bset x <> bset y).
  { intros E. apply Hnotin. rewrite E. apply in_map. exact Hy. }
  lia.
Qed.

Section Proofs.
Variable okind : Type.
Variable metal2 : okind -> bool.
Variable is_addr : okind -> bool.

Notation decl := (decl okind).
Notation step := (step okind metal2 is_addr).
Notation assign_from := (assign_from okind metal2 is_addr).
Notation assign := (assign okind metal2 is_addr).
Notation slot_count := (slot_count okind metal2).
Notation takes_inline := (takes_inline okind is_addr).
Notation skipped_sampler := (skipped_sampler okind).

Definition group_of (dflt : N) (d : decl) : N := match d_set d with Some s => s | None => dflt end.

Definition bindable (p : params) (d : decl) : bool :=
  match d_kind d with
  | KCBuffer => true
  | KObj _ => d_extern d && negb (skipped_sampler p d)
  | KOther => false
  end.

Lemma takes_inline_true p d : takes_inline p d = true ->
  exists o, d_kind d = KObj o /\ support_buffer_address p = true /\ decl_is_addr okind is_addr d = true.
Proof.
  unfold Bindings.takes_inline. destruct (d_kind d) as [|o|]; try discriminate.
  intros H. apply andb_true_iff in H. exists o. split; [reflexivity | exact H].
Qed.

(* what the property says a single declaration must receive *)
Definition binding_ok (p : params) (dflt : N) (d : decl) (ob : option binding) : Prop :=
  match ob with
  | None => bindable p d = false
  | Some b =>
      bindable p d = true /\ b_set b = group_of dflt d /\
      match b_loc b with
      | Index _ => takes_inline p d = false /\
                   b_slots b = match d_kind d with KCBuffer => 1 | _ => slot_count p d end
      | InlineConstant _ => takes_inline p d = true /\ b_slots b = slot_count p d
      end
  end.

Definition index_ranges (g : N) (bs : list (option binding)) : list (N * N) :=
  flat_map (fun ob => match ob with
                      | Some (mkBinding s (Index i) n) => if s =? g then [(i, n)] else []
                      | _ => []
                      end) bs.

Definition inline_ranges (g : N) (bs : list (option binding)) : list (N * N) :=
  flat_map (fun ob => match ob with
                      | Some (mkBinding s (InlineConstant off) n) => if s =? g then [(off, 8 * n)] else []
                      | _ => []
                      end) bs.

(* one step: a declaration that is not bindable changes nothing; an inline one takes the next 8 * n bytes of its
   group (and enters the group among the keys), any other the next n slots *)
Lemma step_cases p dflt st d :
  step p dflt st d =
  let g := group_of dflt d in
  if bindable p d then
    if takes_inline p d then
      let n := slot_count p d in
      (Some (mkBinding g (InlineConstant (inl st g)) n),
       mkState (used st) (upd (inl st) g (inl st g + 8 * n))
               (if mem_N g (inl_keys st) then inl_keys st else inl_keys st ++ [g]))
    else
      let n := match d_kind d with KCBuffer => 1 | _ => slot_count p d end in
      (Some (mkBinding g (Index (used st g)) n), mkState (upd (used st) g (used st g + n)) (inl st) (inl_keys st))
  else (None, st).
Proof.
  unfold Bindings.step, bindable, Bindings.takes_inline, group_of. destruct (d_kind d); try reflexivity.
  destruct (d_extern d); [|reflexivity]. destruct (skipped_sampler p d); reflexivity.
Qed.

(* st' is st after the bindings bs have been handed out: in every group the index ranges continue the used slots, the
   inline ranges continue the inline bytes, and the keys gain exactly the groups that received an inline range *)
Definition accounts (st st' : state) (bs : list (option binding)) : Prop :=
  (forall g,
     tiles (used st g) (index_ranges g bs) /\ used st' g = used st g + total (index_ranges g bs) /\
     tiles (inl st g) (inline_ranges g bs) /\ inl st' g = inl st g + total (inline_ranges g bs) /\
     (In g (inl_keys st') <-> In g (inl_keys st) \/ inline_ranges g bs <> [])) /\
  (NoDup (inl_keys st) -> NoDup (inl_keys st')).

Lemma accounts_nil st : accounts st st [].
Proof. split; [|auto]. intros g. cbn. repeat split; try lia; tauto. Qed.

Lemma index_ranges_app g bs1 bs2 : index_ranges g (bs1 ++ bs2) = index_ranges g bs1 ++ index_ranges g bs2.
Proof. apply flat_map_app. Qed.
Lemma inline_ranges_app g bs1 bs2 : inline_ranges g (bs1 ++ bs2) = inline_ranges g bs1 ++ inline_ranges g bs2.
Proof. apply flat_map_app. Qed.

Lemma accounts_app st st1 st2 bs1 bs2 : accounts st st1 bs1 -> accounts st1 st2 bs2 -> accounts st st2 (bs1 ++ bs2).
Proof.
  intros [H1 N1] [H2 N2]. split; [|auto]. intros g.
  destruct (H1 g) as (T1 & U1 & T1' & U1' & K1), (H2 g) as (T2 & U2 & T2' & U2' & K2).
  rewrite index_ranges_app, inline_ranges_app, !total_app.
  split; [apply tiles_app; rewrite <- U1; split; assumption|]. split; [lia|].
  split; [apply tiles_app; rewrite <- U1'; split; assumption|]. split; [lia|].
  rewrite app_neq_nil, K2, K1. apply or_assoc.
Qed.

Lemma mem_N_In x l : mem_N x l = true <-> In x l.
Proof. apply (existsb_eqb_In N.eqb N.eqb_eq). Qed.

Lemma step_accounts p dflt st d :
  let '(ob, st') := step p dflt st d in binding_ok p dflt d ob /\ accounts st st' [ob].
Proof.
  rewrite step_cases. cbn zeta. set (s := group_of dflt d).
  destruct (bindable p d) eqn:B; [|split; [exact B | apply accounts_nil]].
  (* inline, then index: the facts per group, and that the keys stay distinct *)
  destruct (takes_inline p d) eqn:T; (split; [cbn; auto|]); split; cbn [used inl inl_keys].
  - intros g. unfold index_ranges, inline_ranges, upd. cbn [flat_map app]. rewrite (N.eqb_sym g s).
    destruct (N.eqb_spec s g) as [->|Ne]; cbn [app tiles total]; repeat split; try lia.
    + (* keys, g = s, -> *) intros _. right. discriminate.
    + (* keys, g = s, <- *) intros _. destruct (mem_N g (inl_keys st)) eqn:M; [apply mem_N_In, M | apply in_or_app; right; left; reflexivity].
    + (* keys, g <> s, -> *) destruct (mem_N s (inl_keys st)); [tauto|]. intros H. apply in_app_or in H as [H|[H|[]]]; [left; exact H | contradiction].
    + (* keys, g <> s, <- *) intros [H|H]; [|contradiction]. destruct (mem_N s (inl_keys st)); [exact H | apply in_or_app; left; exact H].
  - intros Hnd. destruct (mem_N s (inl_keys st)) eqn:M; [exact Hnd|].
    apply (Permutation_NoDup (Permutation_cons_append _ s)). constructor; [|exact Hnd].
    rewrite <- mem_N_In, M. discriminate.
  - intros g. unfold index_ranges, inline_ranges, upd. cbn [flat_map app]. rewrite (N.eqb_sym g s).
    destruct (N.eqb_spec s g) as [->|Ne]; cbn [app tiles total]; repeat split; try lia; tauto.
  - auto.
Qed.

Lemma assign_from_accounts p dflt ds : forall st,
  let '(bs, st') := assign_from p dflt st ds in Forall2 (binding_ok p dflt) ds bs /\ accounts st st' bs.
Proof.
  induction ds as [|d ds IH]; intros st; cbn [Bindings.assign_from]; [split; [constructor | apply accounts_nil]|].
  assert (Hs := step_accounts p dflt st d). destruct (step p dflt st d) as [ob st1].
  specialize (IH st1). destruct (assign_from p dflt st1 ds) as [bs st2].
  destruct Hs as [Hok A1], IH as [F A2]. split; [constructor; assumption|].
  apply (accounts_app st st1 st2 [ob] bs A1 A2).
Qed.

Lemma assign_accounts p dflt ds :
  exists st, Forall2 (binding_ok p dflt) ds (fst (assign p dflt ds)) /\ accounts init_state st (fst (assign p dflt ds)) /\
             snd (assign p dflt ds) = sort_blocks (blocks_of st (inl_keys st)).
Proof.
  unfold Bindings.assign. assert (H := assign_from_accounts p dflt ds init_state).
  destruct (assign_from p dflt init_state ds) as [bs st]. exists st. cbn [fst snd]. tauto.
Qed.

Theorem assign_bindings_ok p dflt ds : Forall2 (binding_ok p dflt) ds (fst (assign p dflt ds)).
Proof. destruct (assign_accounts p dflt ds) as (st & F & _). exact F. Qed.

Theorem assign_slots_tile p dflt ds g : tiles 0 (index_ranges g (fst (assign p dflt ds))).
Proof. destruct (assign_accounts p dflt ds) as (st & _ & [A _] & _). apply (A g). Qed.

Theorem assign_inline_tile p dflt ds g : tiles 0 (inline_ranges g (fst (assign p dflt ds))).
Proof. destruct (assign_accounts p dflt ds) as (st & _ & [A _] & _). apply (A g). Qed.

Theorem assign_blocks p dflt ds :
  let bs := fst (assign p dflt ds) in
  let blocks := snd (assign p dflt ds) in
  (* one block per group that has a buffer address, none for the others *)
  (forall g, In g (map bset blocks) <-> inline_ranges g bs <> []) /\
  (* sorted by group, hence at most one per group *)
  StronglySorted (fun a b => bset a < bset b) blocks /\
  (* slot = after all other slots of the group; size = sum of the entries *)
  (forall g l z, In (g, l, z) blocks ->
      l = total (index_ranges g bs) /\ z = total (inline_ranges g bs)).
Proof.
  destruct (assign_accounts p dflt ds) as (st & _ & [A Hnd] & ->). cbn zeta. rewrite sort_blocks_isort.
  set (bl := blocks_of st (inl_keys st)). assert (Hperm := isort_perm _ block_leb bl).
  assert (Hmap : map bset bl = inl_keys st).
  { unfold bl, blocks_of. rewrite map_map. apply map_id. }
  assert (Hin : forall g, In g (map bset (isort block_leb bl)) <-> In g (inl_keys st)).
  { intros g. rewrite <- Hmap. split; apply Permutation_in, Permutation_map; [|symmetry]; exact Hperm. }
  repeat split.
  - intros H. apply Hin, (A g) in H. destruct H as [[]|H]. exact H.
  - intros H. apply Hin, (A g). right. exact H.
  - apply sorted_nodup_strict; [apply (isort_sorted _ _ block_leb_total block_leb_trans)|].
    apply (Permutation_NoDup (Permutation_map bset (Permutation_sym Hperm))).
    rewrite Hmap. apply Hnd. constructor.
  - apply (Permutation_in _ Hperm), in_map_iff in H as (s & E & _). inversion E; subst. apply (A g).
  - apply (Permutation_in _ Hperm), in_map_iff in H as (s & E & _). inversion E; subst. apply (A g).
Qed.

End Proofs.
