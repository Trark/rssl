(* LexerTrivia4.v — trivia at a token boundary behind a prefix.  `Pre2 nxt p`: p is made of trivia pieces and of tokens
   each of which is read the same whatever follows the prefix (as long as that begins with nxt): any token that is
   stable in front of the character after it (pre2_stable) - the tokens of `Pre` among them - and `<` / `>` in front of
   the rest of the prefix.  Such a prefix lexes to the same tokens in front of every continuation that begins with
   nxt (pre2_frame), so trivia behind a token behind it is trivia behind the first token of the rest
   (trivia_behind_prefix2); trivia_after_solid_token says it of a solid token over `Lexes`, without a prefix.  On `Pre` of
   LexerTrivia3, and on `tstart`, stable_trivia and solid_follows_tstart of LexerTrivia7. *)
From Coq Require Import List NArith Bool String Ascii Arith Lia.
From RV Require Import Lexer LexerProofs LexerTrivia LexerTrivia2 LexerTrivia3 LexerTrivia7.
Import ListNotations.
Local Open Scope string_scope.

Section Trivia4.
Variable keywords : list (string * string).
Variable reserved_words : list string.
Variable symbols : list (N * string * option string * option string).
Variable int_suffixes : list (list (list N) * string).
Variable float_suffixes : list (list N * string).
Variable float_is_zero : string -> bool.
Variable utf8_ok : string -> bool.

Notation tok_at := (tok_at keywords reserved_words symbols int_suffixes float_suffixes float_is_zero utf8_ok).
Notation Lexes := (Lexes keywords reserved_words symbols int_suffixes float_suffixes float_is_zero utf8_ok).
Notation lex_file := (lex_file keywords reserved_words symbols int_suffixes float_suffixes float_is_zero utf8_ok).
Notation Pre := (Pre keywords reserved_words symbols int_suffixes float_suffixes float_is_zero utf8_ok).
Notation Frame := (Frame keywords reserved_words symbols int_suffixes float_suffixes float_is_zero utf8_ok).
Notation stable := (stable keywords reserved_words symbols int_suffixes float_suffixes float_is_zero utf8_ok).
Notation solid_check := (solid_check keywords reserved_words symbols int_suffixes float_suffixes float_is_zero utf8_ok).

Inductive Pre2 (nxt : ascii) : string -> Prop :=
| Pre2Nil : Pre2 nxt ""
| Pre2Tok c a' t p :
    (forall r, tok_at false (String c a' ++ (p ++ String nxt r)) = LOk t (slen (String c a'))) ->
    Pre2 nxt p -> Pre2 nxt (String c a' ++ p)
| Pre2Trivia x p : Piece x -> Pre2 nxt p -> Pre2 nxt (x ++ p).

Lemma pre2_stable ok nxt c a' t p : stable ok (String c a') t -> ok (next_char nxt p) -> Pre2 nxt p -> Pre2 nxt (String c a' ++ p).
Proof.
  intros St Hok Pp. apply (Pre2Tok nxt c a' t p); [|exact Pp].
  intros r. apply (stable_next ok _ t nxt p St Hok). eexists; reflexivity.
Qed.

Lemma pre2_solid nxt c a' t p :
  tok_at false (String c a' ++ String " " "") = LOk t (slen (String c a')) -> solid t = true ->
  follows_tok c (next_char nxt p) -> Pre2 nxt p -> Pre2 nxt (String c a' ++ p).
Proof.
  intros T St. exact (pre2_stable _ nxt c a' t p (solid_token_ignores_next c a' _ t T St)).
Qed.

Lemma pre2_solid_closed nxt c a' p :
  solid_check c a' (next_char nxt p) <> None ->
  Pre2 nxt p -> Pre2 nxt (String c a' ++ p).
Proof.
  destruct (solid_check c a' (next_char nxt p)) as [t|] eqn:E; [intros _|congruence].
  destruct (solid_check_ok _ _ _ _ E) as (T & St & F). exact (pre2_solid nxt c a' t p T St F).
Qed.

Lemma pre_pre2 nxt p : Pre nxt p -> Pre2 nxt p.
Proof.
  induction 1 as [|c a' t p T St F Pp IH|x p Px Pp IH];
    [constructor | exact (pre2_solid nxt c a' t p T St F IH) | apply Pre2Trivia; assumption].
Qed.

Lemma pre2_first nxt p : Pre2 nxt p -> p <> "" -> exists t n, forall r, tok_at false (p ++ String nxt r) = LOk t n.
Proof.
  intros [|c a' t p' T Pp|x p' Px Pp] Hne; [congruence| |].
  - exists t, (slen (String c a')). intros r. rewrite sapp_assoc. apply T.
  - destruct (piece_first keywords reserved_words symbols int_suffixes float_suffixes float_is_zero utf8_ok x Px) as (t & n & Ht).
    exists t, n. intros r. rewrite sapp_assoc. apply Ht.
Qed.

(* `<` / `>` in front of the rest of the prefix: the token the bracket looks at belongs to the prefix *)
Lemma pre2_angle nxt c p : c = "<"%char \/ c = ">"%char -> Pre2 nxt p -> p <> "" -> Pre2 nxt (String c "" ++ p).
Proof.
  intros Hc Pp Hne. destruct (pre2_first nxt p Pp Hne) as (t & n & Ht).
  apply (Pre2Tok nxt c "" (angle c (negb (is_ws t))) p); [|exact Pp].
  intros r. cbn [append]. rewrite (tok_at_angle c _ Hc), (Ht r). reflexivity.
Qed.

(* a bracket directly in front of the token at the insertion point, when that token is a word *)
Lemma pre2_angle_word nxt c : c = "<"%char \/ c = ">"%char -> is_alpha_ nxt = true -> Pre2 nxt (String c "").
Proof.
  intros Hc Ha. apply (pre2_stable (fun w => is_alpha_ w = true) nxt c "" (angle c true) ""); [|exact Ha|constructor].
  apply (angle_stable c _ true Hc). intros w r. apply word_starts_token.
Qed.

Lemma pre2_frame nxt p : Pre2 nxt p -> exists tp, Frame (starts nxt) p tp true.
Proof.
  induction 1 as [|c a' t p T Pp (tp & F)|x p Px Pp (tp & F)].
  - exists []. apply frame_nil.
  - exists (t :: tp). apply frame_cons; [|exact F]. intros b (r & ->). apply T.
  - destruct (frame_piece keywords reserved_words symbols int_suffixes float_suffixes float_is_zero utf8_ok x Px) as (ws & fl & _ & Fx).
    exists (ws ++ tp)%list. apply (frame_app _ _ _ _ _ _ _ _ Fx F). trivial.
Qed.

Theorem trivia_behind_prefix2 p c a' t b x spans :
  Pre2 c p ->
  tok_at false (String c a' ++ b) = LOk t (slen (String c a')) ->
  tok_at false (String c a' ++ x ++ b) = LOk t (slen (String c a')) ->
  Trivia x ->
  lex_file (p ++ String c a' ++ b) = SOk spans ->
  exists spans', lex_file (p ++ String c a' ++ x ++ b) = SOk spans' /\ strip (toks spans') = strip (toks spans).
Proof.
  intros Pp T T' Tx. destruct (pre2_frame c p Pp) as (tp & F).
  apply lex_file_lift. intros l L. apply F in L as (tr & -> & L); [|eexists; reflexivity].
  destruct (insert_core (String c a') b x t T T' Tx _ _ L) as (ts & ts' & -> & L' & S').
  exists (tp ++ t :: ts')%list. split; [apply F; [eexists; reflexivity | eauto]|].
  apply strip_congr. exact (strip_congr [t] _ _ S').
Qed.

Corollary trivia_behind_stable ok p c a' t b x spans :
  Pre2 c p -> stable ok (String c a') t -> (forall w, tstart w -> ok w) ->
  tok_at false (String c a' ++ b) = LOk t (slen (String c a')) -> Trivia x ->
  lex_file (p ++ String c a' ++ b) = SOk spans ->
  exists spans', lex_file (p ++ String c a' ++ x ++ b) = SOk spans' /\ strip (toks spans') = strip (toks spans).
Proof. intros Pp St H T Tx. exact (trivia_behind_prefix2 p c a' t b x spans Pp T (stable_trivia ok _ t x St H Tx b) Tx). Qed.

Corollary trivia_after_token_behind_prefix2 p c a' t b x spans :
  Pre2 c p ->
  tok_at false (String c a' ++ b) = LOk t (slen (String c a')) -> solid t = true -> Ascii.eqb c "/" = false -> Trivia x ->
  lex_file (p ++ String c a' ++ b) = SOk spans ->
  exists spans', lex_file (p ++ String c a' ++ x ++ b) = SOk spans' /\ strip (toks spans') = strip (toks spans).
Proof.
  intros Pp T St Cs.
  exact (trivia_behind_stable _ p c a' t b x spans Pp (solid_token_ignores_next c a' b t T St) (solid_follows_tstart c _ t _ T St Cs) T).
Qed.

Theorem trivia_after_solid_token c a' b last t ts x :
  tok_at false (String c a' ++ b) = LOk t (slen (String c a')) -> solid t = true ->
  Ascii.eqb c "/" = false -> Trivia x ->
  Lexes (String c a' ++ b) last (t :: ts) ->
  exists ts', Lexes (String c a' ++ x ++ b) last (t :: ts') /\ strip ts' = strip ts.
Proof.
  intros T St Cs Tx.
  refine (insert_after (String c a') b x t last ts T _ Tx).
  exact (stable_trivia _ _ t x (solid_token_ignores_next c a' b t T St) (solid_follows_tstart c _ t _ T St Cs) Tx b).
Qed.

End Trivia4.

Arguments pre2_stable [keywords reserved_words symbols int_suffixes float_suffixes float_is_zero utf8_ok].
Arguments pre2_solid_closed [keywords reserved_words symbols int_suffixes float_suffixes float_is_zero utf8_ok].
Arguments pre_pre2 [keywords reserved_words symbols int_suffixes float_suffixes float_is_zero utf8_ok].
Arguments pre2_angle [keywords reserved_words symbols int_suffixes float_suffixes float_is_zero utf8_ok].
Arguments pre2_angle_word [keywords reserved_words symbols int_suffixes float_suffixes float_is_zero utf8_ok].
Arguments trivia_behind_stable [keywords reserved_words symbols int_suffixes float_suffixes float_is_zero utf8_ok].
Arguments trivia_after_token_behind_prefix2 [keywords reserved_words symbols int_suffixes float_suffixes float_is_zero utf8_ok].
