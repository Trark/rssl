(* IRTypeProofs.v — what a passed check (`wt e = None`) gives: every node of the tree meets its rule, every annotation
   is the one `derive` computes bottom-up, and the rules for assignments, increments, calls, matrix swizzles, returns
   and initialisers as facts about the operands. *)
From Coq Require Import List NArith Bool String Lia.
From RV Require Import IRType ListFacts.
Import ListNotations.
Local Open Scope string_scope.
Local Open Scope N_scope.

Section Ind.
Variable P : expr -> Prop.
Hypothesis H : forall k t lv kids, Forall P kids -> P (Node k t lv kids).
Fixpoint expr_ind' (e : expr) : P e :=
  match e with
  | Node k t lv kids =>
      H k t lv kids ((fix all (l : list expr) : Forall P l :=
                        match l with [] => Forall_nil P | x :: r => Forall_cons x (expr_ind' x) (all r) end) kids)
  end.
End Ind.

Lemma sk_eqb_eq a b : sk_eqb a b = true -> a = b.
Proof. destruct a, b; cbn; congruence. Qed.

Lemma optN_eqb_eq a b : optN_eqb a b = true -> a = b.
Proof. destruct a, b; cbn; try congruence. intros E. apply N.eqb_eq in E. congruence. Qed.

Lemma ty_eqb_eq : forall a b, ty_eqb a b = true -> a = b.
Proof.
  induction a; destruct b; cbn; try congruence; intros E;
    repeat match goal with
           | E : _ && _ = true |- _ => apply andb_true_iff in E; destruct E
           | E : (_ =? _) = true |- _ => apply N.eqb_eq in E
           | E : String.eqb _ _ = true |- _ => apply String.eqb_eq in E
           | E : sk_eqb _ _ = true |- _ => apply sk_eqb_eq in E
           | E : optN_eqb _ _ = true |- _ => apply optN_eqb_eq in E
           | E : ty_eqb _ _ = true, IH : forall b, ty_eqb _ b = true -> _ |- _ => apply IH in E
           end; subst; reflexivity.
Qed.

Lemma both_none a b : both a b = None -> a = None /\ b = None.
Proof. destruct a; cbn; [discriminate | auto]. Qed.

Lemma req_none b s : req b s = None -> b = true.
Proof. destruct b; cbn; [reflexivity | discriminate]. Qed.

(* [split_err]: a combination of requirements that raised no error, taken apart into the tests that passed *)
Ltac split_err :=
  repeat match goal with
         | E : both _ _ = None |- _ => apply both_none in E; destruct E
         | E : req _ _ = None |- _ => apply req_none in E
         | E : _ && _ = true |- _ => apply andb_true_iff in E; destruct E
         end.

(* [fin]: split_err, then the passed tests on the annotation (t, lv) as equations; with the annotation replaced by what
   the tests compare it with, the two sides of the goal are the same term *)
Ltac fin :=
  split_err;
  repeat match goal with
         | E : ty_eqb _ _ = true |- _ => apply ty_eqb_eq in E
         | E : negb _ = true |- _ => apply negb_true_iff in E
         | E : Bool.eqb _ _ = true |- _ => apply Bool.eqb_prop in E
         end;
  subst; reflexivity.

(* the inner fixpoint of `wt` over the kids, under a name *)
Definition all_wt (l : list expr) : err :=
  (fix all (l : list expr) : err := match l with [] => None | x :: r => both (wt x) (all r) end) l.

Lemma wt_unfold k t lv kids : wt (Node k t lv kids) = both (check_node k t lv kids) (all_wt kids).
Proof. reflexivity. Qed.

Lemma all_wt_forall l : all_wt l = None -> Forall (fun x => wt x = None) l.
Proof.
  induction l as [|x r IH]; cbn; intros E; [constructor|].
  apply both_none in E as [E1 E2]. constructor; [exact E1 | apply IH; exact E2].
Qed.

Lemma wt_node k t lv kids : wt (Node k t lv kids) = None ->
  check_node k t lv kids = None /\ Forall (fun x => wt x = None) kids.
Proof.
  rewrite wt_unfold. intros W. apply both_none in W as [W1 W2]. split; [exact W1 | apply all_wt_forall, W2].
Qed.

Inductive subterm : expr -> expr -> Prop :=
| sub_refl e : subterm e e
| sub_kid s k t lv kids x : In x kids -> subterm s x -> subterm s (Node k t lv kids).

Theorem wt_every_node e : wt e = None ->
  forall s, subterm s e -> match s with Node k t lv kids => check_node k t lv kids = None end.
Proof.
  induction e as [k t lv kids IH] using expr_ind'. intros W s Hs. apply wt_node in W as [W1 W2].
  inversion Hs as [|s' k' t' lv' kids' x Hin Hsub]; subst.
  - exact W1.
  - rewrite Forall_forall in IH, W2. exact (IH x Hin (W2 x Hin) s Hsub).
Qed.

(* [abstract_messages]: the error messages in the goal become variables.  No fact below depends on what a message
   says, and as literals they would be copied into the proof at every case split of the cascades of tests. *)
Ltac abstract_messages :=
  repeat match goal with
         | |- context [req _ (String ?c ?s)] => generalize (String c s); let m := fresh "msg" in intro m
         | |- context [bad (String ?c ?s)] => generalize (String c s); let m := fresh "msg" in intro m
         end.

Lemma in_list_In n l : in_list n l = true -> In n l.
Proof. apply (existsb_eqb_In String.eqb String.eqb_eq). Qed.

(* the side condition on the two literal lists of names is closed by evaluation *)
Lemma in_list_disjoint A B n : in_list n A = true -> forallb (fun a => negb (in_list a B)) A = true -> in_list n B = false.
Proof. intros H D. rewrite forallb_forall in D. apply negb_true_iff, D, in_list_In, H. Qed.

Lemma in_list_incl A B n : in_list n A = true -> forallb (fun a => in_list a B) A = true -> in_list n B = true.
Proof. intros H D. rewrite forallb_forall in D. apply D, in_list_In, H. Qed.

Definition assign_name (n : string) : bool := String.eqb n "Assignment" || in_list n assign_arith || in_list n assign_int.

Lemma assign_name_list n : assign_name n = in_list n ("Assignment" :: assign_arith ++ assign_int).
Proof. unfold assign_name, in_list. cbn [existsb]. rewrite existsb_app, orb_assoc. reflexivity. Qed.

Definition ann (e : expr) : ty * bool := (e_ty e, e_lv e).

Definition increments := ["PrefixIncrement"; "PrefixDecrement"; "PostfixIncrement"; "PostfixDecrement"].

Lemma check_unary name t lv a : check_op name t lv [a] = None ->
  derive_node (KOp name) t lv [ann a] = Some (t, lv) /\ (in_list name increments = true -> writable a = true).
Proof.
  unfold ann. cbn [check_op derive_node]. abstract_messages. intros C.
  destruct (in_list name ["PrefixIncrement"; "PrefixDecrement"]) eqn:E1; (* prefix increment *)
    [split; [fin | intros _; split_err; assumption]|].
  destruct (in_list name ["PostfixIncrement"; "PostfixDecrement"]) eqn:E2. (* postfix increment *)
  { rewrite (in_list_incl _ _ _ E2) by reflexivity. split; [fin | intros _; split_err; assumption]. }
  split.
  2:{ (* no increment is left *) unfold increments, in_list in *. cbn [existsb] in *. rewrite !orb_false_r in *. rewrite orb_assoc, E1, E2. discriminate. }
  destruct (in_list name ["Plus"; "Minus"]) eqn:E3; (* sign *) [rewrite (in_list_incl _ _ _ E3) by reflexivity; fin|].
  destruct (String.eqb name "LogicalNot") eqn:E4.
  { apply String.eqb_eq in E4. subst name. cbn [in_list existsb String.eqb Ascii.eqb Bool.eqb orb].
    destruct (num (e_ty a)) as [[k s]|]; [fin | discriminate]. }
  destruct (String.eqb name "BitwiseNot") eqn:E5; [|discriminate].
  apply String.eqb_eq in E5. subst name. cbn [in_list existsb String.eqb Ascii.eqb Bool.eqb orb]. fin.
Qed.

Lemma check_binary name t lv a b : check_op name t lv [a; b] = None ->
  derive_node (KOp name) t lv [ann a; ann b] = Some (t, lv) /\
  (assign_name name = true -> writable a = true /\ same (e_ty a) (e_ty b) = true /\ t = e_ty a /\ lv = true).
Proof.
  assert (not_assign : forall A, in_list name A = true ->
            forallb (fun a => negb (in_list a ("Assignment" :: assign_arith ++ assign_int))) A = true ->
            assign_name name = true -> writable a = true /\ same (e_ty a) (e_ty b) = true /\ t = e_ty a /\ lv = true).
  { intros A H D Hn. rewrite assign_name_list, (in_list_disjoint _ _ _ H D) in Hn. discriminate. }
  unfold ann. cbn [check_op derive_node]. abstract_messages. intros C.
  destruct (in_list name arith_ops) eqn:E1; (* arithmetic *) [split; [fin | exact (not_assign _ E1 eq_refl)]|].
  destruct (in_list name int_ops) eqn:E2; (* integer *) [split; [fin | exact (not_assign _ E2 eq_refl)]|].
  destruct (in_list name bool_ops) eqn:E3; (* short-circuit *) [split; [fin | exact (not_assign _ E3 eq_refl)]|].
  cbn [orb].
  destruct (in_list name cmp_ops) eqn:E4. (* comparison *)
  { split; [|exact (not_assign _ E4 eq_refl)]. split_err.
    destruct (num (e_ty a)) as [[k s]|]; [fin|]. destruct (strip (e_ty a)); try discriminate. fin. }
  unfold assign_name.
  (* the three kinds of assignment (plain, arithmetic, integer): the annotation is the one tested, the operands' requirements the other tests *)
  destruct (String.eqb name "Assignment") eqn:E5; [split; [fin | split_err; auto using ty_eqb_eq]|].
  destruct (in_list name assign_arith) eqn:E6; [split; [fin | split_err; auto using ty_eqb_eq]|].
  destruct (in_list name assign_int) eqn:E7; [split; [fin | split_err; auto using ty_eqb_eq] | discriminate].
Qed.

Theorem wt_assignment_operands name t lv a b :
  assign_name name = true ->
  check_node (KOp name) t lv [a; b] = None ->
  writable a = true /\ same (e_ty a) (e_ty b) = true /\ t = e_ty a /\ lv = true.
Proof. intros Hn C. exact (proj2 (check_binary name t lv a b C) Hn). Qed.

Theorem wt_increment_operand name t lv a :
  in_list name increments = true -> check_node (KOp name) t lv [a] = None -> writable a = true.
Proof. intros Hn C. exact (proj2 (check_unary name t lv a C) Hn). Qed.

Lemma writable_spec e : writable e = true -> e_lv e = true /\ const_path e = false /\ is_const (e_ty e) = false.
Proof.
  unfold writable. intros E. apply andb_true_iff in E as [E1 E2]. apply negb_true_iff in E2.
  repeat split; try assumption. destruct e as [k t lv kids]. cbn [const_path e_ty] in *.
  apply orb_false_iff in E2 as [E2 _]. exact E2.
Qed.

Lemma args_ok_spec : forall params nd args, args_ok nd params args = None ->
  Forall2 (fun (p : N * ty) a =>
             (same (e_ty a) (snd p) = true \/ exists i, strip (snd p) = TParam i) /\
             (fst p <> 0 -> writable a = true)) (firstn (List.length args) params) args.
Proof.
  induction params as [|[dir pt] ps IH]; intros nd [|a r] E; cbn [args_ok] in E; try discriminate; cbn [List.length firstn]; [constructor|constructor|].
  split_err. constructor; [|eapply IH; eassumption]. cbn [fst snd]. split.
  - match goal with H : same _ _ || _ = true |- _ => apply orb_true_iff in H as [H|H] end; [left; assumption|].
    right. destruct (strip pt); try discriminate. eexists; reflexivity.
  - intros Hd. match goal with H : (dir =? 0) || _ = true |- _ => apply orb_true_iff in H as [Hz|Hz] end; [|assumption].
    apply N.eqb_eq in Hz. contradiction.
Qed.

Lemma args_ok_count : forall params nd args, args_ok nd params args = None ->
  (N.to_nat nd <= List.length args <= List.length params)%nat.
Proof.
  induction params as [|[dir pt] ps IH]; intros nd [|a r] E; cbn [args_ok] in E; try discriminate; cbn [List.length].
  1, 2: apply req_none, N.eqb_eq in E; subst nd; cbn; lia.
  split_err. match goal with H : args_ok _ _ _ = None |- _ => apply IH in H end. lia.
Qed.

Theorem wt_call_operands intrinsic nd params ret t lv args :
  check_node (KCall false intrinsic nd params ret) t lv args = None ->
  Forall2 (fun (p : N * ty) a =>
             (same (e_ty a) (snd p) = true \/ exists i, strip (snd p) = TParam i) /\
             (fst p <> 0 -> writable a = true)) (firstn (List.length args) params) args /\
  (N.to_nat nd <= List.length args <= List.length params)%nat /\ t = ret /\ lv = false.
Proof.
  intros C. cbn [check_node] in C. split_err. split; [eapply args_ok_spec; eassumption|].
  split; [eapply args_ok_count; eassumption|]. split; [apply ty_eqb_eq | apply negb_true_iff]; assumption.
Qed.

Theorem wt_matrix_swizzle idx t lv x :
  check_node (KMSwz idx) t lv [x] = None ->
  exists r c s, strip (e_ty x) = TMatrix r c s /\
    forallb (fun i => (i / 4 <? r) && (i mod 4 <? c)) idx = true /\
    lv = (e_lv x && nodupN idx)%bool.
Proof.
  intros C. cbn [check_node] in C. destruct idx as [|i idx]; [discriminate|].
  destruct (strip (e_ty x)) as [| | |r c s| | | | | | | |] eqn:E; try discriminate.
  split_err. exists r, c, s. repeat split.
  - match goal with H : forallb _ _ = true |- _ => exact H end.
  - match goal with H : Bool.eqb _ _ = true |- _ => apply Bool.eqb_prop in H; exact H end.
Qed.

Theorem wt_return ret e : wt_stmt ret (SRet (Some e)) = None -> wt e = None /\ same (e_ty e) ret = true.
Proof. cbn. intros E. split_err. split; assumption. Qed.

Theorem wt_return_nothing ret : wt_stmt ret (SRet None) = None -> strip ret = TVoid.
Proof. cbn. intros E. apply req_none, ty_eqb_eq in E. exact E. Qed.

Theorem wt_initialiser ret t e : wt_stmt ret (SVar t (IExpr e)) = None -> wt e = None /\ same (e_ty e) t = true.
Proof. cbn. intros E. split_err. split; assumption. Qed.

Lemma derive_kids l : Forall (fun x => derive x = Some (ann x)) l ->
  (fix all (l : list expr) : option (list (ty * bool)) :=
     match l with
     | [] => Some []
     | x :: r => match derive x, all r with Some a, Some b => Some (a :: b) | _, _ => None end
     end) l = Some (map ann l).
Proof.
  induction 1 as [|x r Hx Hr IH]; [reflexivity|]. rewrite Hx, IH. reflexivity.
Qed.

Lemma check_derive_node k t lv kids :
  check_node k t lv kids = None -> derive_node k t lv (map ann kids) = Some (t, lv).
Proof.
  unfold ann. destruct k; cbn [check_node]; abstract_messages; intros C.
  - (* literal *) destruct kids; [|split_err; discriminate]. cbn. fin.
  - (* variable *) destruct kids; [|split_err; discriminate]. cbn. fin.
  - (* enum value *) destruct kids; [|split_err; discriminate]. cbn. fin.
  - (* ternary *) destruct kids as [|c [|a [|b [|? ?]]]]; try discriminate. cbn. fin.
  - (* sequence *) cbn [derive_node]. rewrite <- map_rev. destruct (rev kids) as [|last r]; [discriminate|].
    cbn. fin.
  - (* swizzle *) destruct kids as [|x [|? ?]]; try discriminate. destruct idx as [|i idx]; [discriminate|].
    cbn [map derive_node].
    destruct (strip (e_ty x)); try discriminate; fin.
  - (* matrix swizzle *) destruct kids as [|x [|? ?]]; try discriminate. destruct idx as [|i idx]; [discriminate|].
    cbn [map derive_node].
    destruct (strip (e_ty x)); try discriminate; fin.
  - (* opaque *) destruct kids; reflexivity.
  - (* subscript *) destruct kids as [|a [|i [|? ?]]]; try discriminate. split_err. cbn [map derive_node].
    destruct (strip (e_ty a)); try discriminate; fin.
  - (* struct member *) destruct kids as [|x [|? ?]]; try discriminate. cbn. fin.
  - (* call *) split_err. destruct kids; cbn; fin.
  - (* constructor *) destruct (num t) as [[k s]|]; [|discriminate]. split_err. destruct kids; cbn; fin.
  - (* cast *) destruct kids as [|x [|? ?]]; try discriminate. cbn. fin.
  - (* sizeof *) destruct kids; [|split_err; discriminate]. cbn. fin.
  - (* operations *) destruct kids as [|a [|b [|? ?]]]; try discriminate.
    + exact (proj1 (check_unary name t lv a C)).
    + exact (proj1 (check_binary name t lv a b C)).
Qed.

Theorem wt_annotations_are_derived e : wt e = None -> derive e = Some (ann e).
Proof.
  induction e as [k t lv kids IH] using expr_ind'. intros W. apply wt_node in W as [C W].
  assert (Hk : Forall (fun x => derive x = Some (ann x)) kids).
  { rewrite Forall_forall in *. intros x Hx. exact (IH x Hx (W x Hx)). }
  cbn [derive]. rewrite (derive_kids kids Hk). exact (check_derive_node k t lv kids C).
Qed.
