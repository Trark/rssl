(* LexerTriviaNum.v — decimal integer literals.  A run of digits (no leading zero unless it is `0` alone) followed by a
   character that can neither continue a number nor start a suffix is read as the LiteralInt of its value and of
   exactly its length, whatever comes after that character; so (pre2_stable, trivia_behind_stable of LexerTrivia4) such
   a literal may stand in a `Pre2` prefix, and trivia inserted behind it leaves the sequence of tokens that are not
   whitespace unchanged. *)
From Coq Require Import List NArith Bool String Ascii Arith Lia.
From RV Require Import Lexer LexerProofs LexerTrivia LexerTrivia2 LexerTrivia3 LexerTrivia7 LexerTrivia4.
Import ListNotations.
Local Open Scope string_scope.

Lemma existsb_code_alpha w a : forallb (fun n => is_alpha_ (ascii_of_N n)) a = true -> is_alpha_ w = false ->
  existsb (N.eqb (code w)) a = false.
Proof.
  intros Ha Hw. destruct (existsb (N.eqb (code w)) a) eqn:X; [|reflexivity]. exfalso.
  apply existsb_exists in X as (n & Hn & En). apply N.eqb_eq in En. subst n.
  rewrite forallb_forall in Ha. specialize (Ha _ Hn). unfold code in Ha. rewrite ascii_N_embedding in Ha. congruence.
Qed.

(* two tests that agree on every entry passing the check g find the same entry *)
Lemma find_ext_checked {A} (g f f' : A -> bool) l :
  forallb g l = true -> (forall x, g x = true -> f x = f' x) -> find f l = find f' l.
Proof.
  intros Hg E. induction l as [|x l IH]; [reflexivity|]. cbn [forallb] in Hg. apply andb_true_iff in Hg as [H1 H2].
  cbn [find]. rewrite (E x H1), (IH H2). reflexivity.
Qed.

Lemma find_never {A} (l : list A) : find (fun _ => false) l = None.
Proof. induction l; [reflexivity | assumption]. Qed.

Lemma dec_digit c : match dec_val c with Some _ => true | None => false end = is_digit c.
Proof. unfold dec_val. destruct (is_digit c); reflexivity. Qed.

Lemma not_digit_octal w : is_digit w = false -> is_octal w = false.
Proof.
  unfold is_octal, is_digit. destruct (48 <=? code w)%N; [|reflexivity]. cbn [andb].
  intros H. apply N.leb_gt in H. apply N.leb_gt. lia.
Qed.

Section Num.
Variable keywords : list (string * string).
Variable reserved_words : list string.
Variable symbols : list (N * string * option string * option string).
Variable int_suffixes : list (list (list N) * string).
Variable float_suffixes : list (list N * string).
Variable float_is_zero : string -> bool.
Variable utf8_ok : string -> bool.

Notation tok_at := (tok_at keywords reserved_words symbols int_suffixes float_suffixes float_is_zero utf8_ok).
Notation lex_file := (lex_file keywords reserved_words symbols int_suffixes float_suffixes float_is_zero utf8_ok).
Notation Pre := (Pre keywords reserved_words symbols int_suffixes float_suffixes float_is_zero utf8_ok).
Notation Pre2 := (Pre2 keywords reserved_words symbols int_suffixes float_suffixes float_is_zero utf8_ok).
Notation stable := (stable keywords reserved_words symbols int_suffixes float_suffixes float_is_zero utf8_ok).

(* every integer suffix begins with a letter (a check on the regenerated table) *)
Definition suffixes_alpha : bool :=
  forallb (fun '(alts, _) => match alts with
                             | a :: _ => forallb (fun n => is_alpha_ (ascii_of_N n)) a
                             | [] => false
                             end) int_suffixes.

Lemma int_suffix_needs_alpha w r : suffixes_alpha = true -> is_alpha_ w = false -> int_suffix int_suffixes (String w r) = None.
Proof.
  intros Hs Hw. unfold int_suffix. rewrite (find_ext_checked _ _ (fun _ => false) _ Hs), find_never; [reflexivity|].
  intros [[|a rest] k] H; [discriminate|]. cbn [match_chars]. rewrite (existsb_code_alpha w a H Hw). reflexivity.
Qed.

Definition ends_number (w : ascii) : Prop :=
  is_ident_char w = false /\ Ascii.eqb w "." = false.

Lemma tstart_ends_number w : tstart w -> ends_number w.
Proof. intros [[ -> | [ -> | -> ] ]|[ -> | -> ]]; split; reflexivity. Qed.

Theorem decimal_int_token c a' v :
  suffixes_alpha = true ->
  all is_digit (String c a') = true -> (Ascii.eqb c "0" = true -> a' = "") ->
  accum 10 dec_val (String c a') 0 = Some v ->
  stable ends_number (String c a') (TInt "LiteralInt" v).
Proof.
  intros Hs Ha Hz Hv w r (Wi & Wd). unfold is_ident_char in Wi. apply orb_false_iff in Wi as [Walpha Wdig].
  assert (Hc : is_digit c = true) by (cbn [all] in Ha; apply andb_true_iff in Ha as [H _]; exact H).
  (* the float recogniser declines: neither fraction nor exponent *)
  assert (F : lex_float float_suffixes float_is_zero (String c a' ++ String w r) = LErr OtherTokenBytes 0).
  { rewrite lex_float_unfold, (span_stop is_digit _ w r Ha Wdig), Wd. unfold float_rest. rewrite drop_app. unfold lex_exponent.
    rewrite (class_neq is_alpha_ w "e" Walpha eq_refl), (class_neq is_alpha_ w "E" Walpha eq_refl). reflexivity. }
  (* the decimal branch of the integer recogniser: the digits of the literal, no suffix *)
  assert (I : int_go int_suffixes (String c a' ++ String w r) 0 10 dec_val = LOk (TInt "LiteralInt" v) (slen (String c a'))).
  { unfold int_go. cbn [drop]. rewrite (span_stop _ (String c a') w r).
    - cbv beta iota. rewrite Hv, (int_suffix_needs_alpha w r Hs Walpha). cbn [option_map int_token]. rewrite Nat.add_0_r. reflexivity.
    - rewrite (all_ext _ is_digit _ dec_digit). exact Ha.
    - rewrite dec_digit. exact Wdig. }
  cbn [append] in *. rewrite (tok_at_digit _ _ _ Hc), F, lex_int_unfold.
  (* it is that branch: the literal starts neither `0x` nor, with an octal digit after it, `0` *)
  destruct a' as [|d a'']; cbn [append] in *.
  - rewrite !starts_cons, (Ascii.eqb_sym "x" w), (class_neq is_alpha_ w "x" Walpha eq_refl), (not_digit_octal w Wdig), !andb_false_r.
    exact I.
  - assert (Z : Ascii.eqb c "0" = false) by (destruct (Ascii.eqb c "0"); [discriminate (Hz eq_refl)|reflexivity]).
    rewrite starts_cons, (Ascii.eqb_sym "0" c), Z. exact I.
Qed.

Lemma pre2_decimal_int nxt c a' v p :
  suffixes_alpha = true ->
  all is_digit (String c a') = true -> (Ascii.eqb c "0" = true -> a' = "") ->
  accum 10 dec_val (String c a') 0 = Some v ->
  ends_number (next_char nxt p) ->
  Pre2 nxt p -> Pre2 nxt (String c a' ++ p).
Proof.
  intros Hs Ha Hz Hv. exact (pre2_stable _ nxt c a' _ p (decimal_int_token c a' v Hs Ha Hz Hv)).
Qed.

Corollary trivia_after_decimal_int_behind_prefix2 p c a' v b x spans :
  suffixes_alpha = true ->
  Pre2 c p ->
  all is_digit (String c a') = true -> (Ascii.eqb c "0" = true -> a' = "") ->
  accum 10 dec_val (String c a') 0 = Some v ->
  tok_at false (String c a' ++ b) = LOk (TInt "LiteralInt" v) (slen (String c a')) ->
  Trivia x ->
  lex_file (p ++ String c a' ++ b) = SOk spans ->
  exists spans', lex_file (p ++ String c a' ++ x ++ b) = SOk spans' /\ strip (toks spans') = strip (toks spans).
Proof.
  intros Hs Pp Ha Hz Hv. exact (trivia_behind_stable _ p c a' _ b x spans Pp (decimal_int_token c a' v Hs Ha Hz Hv) tstart_ends_number).
Qed.

Theorem trivia_after_decimal_int_behind_prefix p c a' v b x spans :
  suffixes_alpha = true ->
  Pre c p ->
  all is_digit (String c a') = true -> (Ascii.eqb c "0" = true -> a' = "") ->
  accum 10 dec_val (String c a') 0 = Some v ->
  tok_at false (String c a' ++ b) = LOk (TInt "LiteralInt" v) (slen (String c a')) ->
  Trivia x ->
  lex_file (p ++ String c a' ++ b) = SOk spans ->
  exists spans', lex_file (p ++ String c a' ++ x ++ b) = SOk spans' /\ strip (toks spans') = strip (toks spans).
Proof.
  intros Hs Pp. exact (trivia_after_decimal_int_behind_prefix2 p c a' v b x spans Hs (pre_pre2 c p Pp)).
Qed.

End Num.

Arguments decimal_int_token [keywords reserved_words symbols int_suffixes float_suffixes float_is_zero utf8_ok].
Arguments pre2_decimal_int [keywords reserved_words symbols int_suffixes float_suffixes float_is_zero utf8_ok].
