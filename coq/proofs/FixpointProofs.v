(* FixpointProofs.v — the two bookkeeping passes of the exporter are idempotent on their own output: a name map all of
   whose names the generator keeps (`is_kept`) is assigned as it is, and declarations that carry their assigned group
   explicitly are given the same slots again, whatever the default group. *)
From Coq Require Import List NArith Bool String Lia Permutation.
From RV Require Import Wire NameGen NameGenProofs Bindings BindingsProofs.
Import ListNotations.

Section Names.
Variable reserved : list string.

Lemma gen_entries_all_kept l : Forall (fun e => is_kept reserved e = true) l ->
  forall used out, gen_entries reserved l used out = Some (used, out).
Proof.
  induction 1 as [|e r He Hr IH]; intros used out; cbn [gen_entries]; [reflexivity|]. rewrite He. apply IH.
Qed.

(* every name of the scope stands for one symbol and is not reserved: nothing is renamed *)
Theorem assign_scope_identity es :
  Forall (fun e => is_kept reserved e = true) es ->
  assign_scope reserved es = Some (kept_assignments reserved es, []).
Proof.
  intros H. unfold assign_scope.
  assert (Hs : Forall (fun e => is_kept reserved e = true) (sort_entries es)).
  { rewrite Forall_forall in *. intros e He. apply H. apply (Permutation_in _ (sort_entries_perm es)). exact He. }
  rewrite (gen_entries_all_kept _ Hs). reflexivity.
Qed.

Lemma assign_scopes_identity scopes :
  Forall (Forall (fun e => is_kept reserved e = true)) scopes ->
  assign_scopes reserved scopes = Some (flat_map (kept_assignments reserved) scopes, []).
Proof.
  induction 1 as [|es r He Hr IH]; cbn [assign_scopes flat_map]; [reflexivity|].
  rewrite (assign_scope_identity es He), IH. reflexivity.
Qed.

Lemma assign_locals_identity locals : forall all used out,
  (forall id n, In (id, n) locals -> in_str n used = false) ->
  assign_locals locals all used out = Some (rev out ++ locals).
Proof.
  induction locals as [|[id n] r IH]; intros all used out H; cbn [assign_locals].
  - rewrite app_nil_r. reflexivity.
  - rewrite (H id n (or_introl eq_refl)). rewrite IH by (intros i m Hi; apply (H i m); right; exact Hi).
    cbn [rev]. rewrite <- app_assoc. reflexivity.
Qed.

(* the scope as the second compilation sees it: every symbol under the name it was given, one symbol per name *)
Definition reentries (a : list (sym * string)) : list entry := map (fun p => mkEntry (snd p) [fst p]) a.

Lemma reentries_kept a :
  (forall n, In n (map snd a) -> ~ In n reserved) -> Forall (fun e => is_kept reserved e = true) (reentries a).
Proof.
  intros H. unfold reentries. rewrite Forall_map. rewrite Forall_forall. intros [s n] Hin.
  unfold is_kept. cbn [e_syms e_name fst snd]. apply negb_true_iff, in_str_false. apply H.
  apply in_map_iff. exists (s, n). split; [reflexivity | exact Hin].
Qed.

Lemma kept_assignments_reentries a :
  (forall n, In n (map snd a) -> ~ In n reserved) -> kept_assignments reserved (reentries a) = a.
Proof.
  induction a as [|[s n] r IH]; intros H; [reflexivity|].
  unfold reentries. cbn [map kept_assignments flat_map]. unfold is_kept at 1. cbn [e_syms e_name fst snd].
  assert (E : in_str n reserved = false). { apply in_str_false. apply H. left. reflexivity. }
  rewrite E. cbn [negb map app]. f_equal. apply IH. intros m Hm. apply H. right. exact Hm.
Qed.

End Names.

Section Slots.
Variable okind : Type.
Variable metal2 is_addr : okind -> bool.

Notation decl := (Bindings.decl okind).
Notation step := (Bindings.step okind metal2 is_addr).
Notation assign_from := (Bindings.assign_from okind metal2 is_addr).
Notation assign := (Bindings.assign okind metal2 is_addr).

(* the declaration as the exporter prints it: the group it was assigned to is written out *)
Definition with_group (dflt : N) (d : decl) : decl :=
  mkDecl (d_kind d) (d_array d) (Some (match d_set d with Some s => s | None => dflt end)) (d_static_sampler d) (d_extern d).

(* the DirectX exporter also prints some object kinds as others (BufferAddress as ByteAddressBuffer) *)
Definition emitted (rek : okind -> okind) (dflt : N) (d : decl) : decl :=
  mkDecl (match d_kind d with KObj o => KObj (rek o) | k => k end) (d_array d)
         (Some (match d_set d with Some s => s | None => dflt end)) (d_static_sampler d) (d_extern d).

Lemma with_group_emitted dflt d : with_group dflt d = emitted (fun o => o) dflt d.
Proof. unfold with_group, emitted. destruct (d_kind d); reflexivity. Qed.

(* a step looks at the kind of an object only to ask for its cost under the Metal layout and whether it is an inline
   buffer address: a re-spelling that answers both questions as before leaves the step as it was *)
Lemma step_emitted rek p dflt dflt' st d :
  (forall o, metal_slot_layout p && metal2 (rek o) = metal_slot_layout p && metal2 o) ->
  (forall o, support_buffer_address p && is_addr (rek o) = support_buffer_address p && is_addr o) ->
  step p dflt' st (emitted rek dflt d) = step p dflt st d.
Proof.
  intros Hm Hs. unfold Bindings.step, emitted. cbn [d_kind d_set d_extern].
  destruct (d_kind d) as [|o|] eqn:Ek; try reflexivity.
  unfold Bindings.skipped_sampler, Bindings.takes_inline, Bindings.slot_count, Bindings.array_count, Bindings.slice_cost,
    Bindings.decl_is_addr.
  cbn [d_kind d_array d_static_sampler d_set d_extern]. rewrite Ek, Hm. destruct (d_array d); rewrite ?Hs; reflexivity.
Qed.

Theorem assign_emitted rek p dflt dflt' (ds : list decl) :
  (forall o, metal_slot_layout p && metal2 (rek o) = metal_slot_layout p && metal2 o) ->
  (forall o, support_buffer_address p && is_addr (rek o) = support_buffer_address p && is_addr o) ->
  assign p dflt' (map (emitted rek dflt) ds) = assign p dflt ds.
Proof.
  intros Hm Hs. unfold Bindings.assign.
  assert (E : forall st, assign_from p dflt' st (map (emitted rek dflt) ds) = assign_from p dflt st ds).
  { induction ds as [|d r IH]; intros st; cbn [map Bindings.assign_from]; [reflexivity|].
    rewrite (step_emitted rek p dflt dflt' st d Hm Hs). destruct (step p dflt st d) as [b st1]. rewrite IH. reflexivity. }
  rewrite E. reflexivity.
Qed.
End Slots.
