(* LexerNumTail.v — numeric literals of every form (decimal, hexadecimal, octal, with suffixes, exponents, #INF) do not
   depend on the trivia that follows them.  For a character w that no recogniser of numbers accepts (not a letter,
   digit or underscore, neither . nor #, and + or - only where u does not end in the e of an exponent) the number
   recognisers give the same verdict on u ++ w :: r as on u alone (up to which of two rejections an unfinished `0x`
   gets), for every u.  So a literal is read the same in front of any two such characters, and may stand in a `Pre2`
   prefix (LexerTrivia4), in a described text (`Good`, LexerTrivia7) and in front of inserted trivia.  The check on the float
   suffix table is `fsuffixes_alpha` of LexerTriviaFloat; of the integer suffixes every character has to be a letter
   (`suffixes_alpha_all`), where LexerTriviaNum asks it of the first. *)
From Coq Require Import List NArith Bool String Ascii Arith Lia.
From RV Require Import Lexer LexerProofs LexerTrivia LexerTrivia2 LexerTrivia3 LexerTrivia7 LexerTrivia4.
From RV Require Import LexerTriviaNum LexerTriviaFloat.
Import ListNotations.
Local Open Scope string_scope.

Definition stopc (w : ascii) : bool :=
  negb (is_ident_char w) && negb (Ascii.eqb w ".") && negb (Ascii.eqb w "#").

(* + and - continue a number only behind the e of an exponent *)
Fixpoint ends_e (u : string) : bool :=
  match u with
  | "" => false
  | String c "" => Ascii.eqb c "e" || Ascii.eqb c "E"
  | String _ r => ends_e r
  end.
Definition pm_ok (u : string) (w : ascii) : bool :=
  negb (Ascii.eqb w "+" || Ascii.eqb w "-") || negb (ends_e u).

(* The characters that end a literal.  `ends_number` (LexerTriviaNum, behind a decimal integer: no identifier character,
   no `.`) and `ends_float` (LexerTriviaFloat, behind digits `.` digits: no identifier character, no `#`) are Props, each
   for one form of literal; `stopc` is the two together as a boolean, and `stopb u` adds what a literal u of any form
   needs: no sign directly behind the e of an exponent. *)
Definition stopb (u : string) (w : ascii) : bool := stopc w && pm_ok u w.

Lemma span_tail p u w r : p w = false -> span p (u ++ String w r) = (fst (span p u), snd (span p u) ++ String w r).
Proof.
  intros Hw. induction u as [|c u IH]; cbn [append span]; [rewrite Hw; reflexivity|].
  destruct (p c); [|reflexivity]. rewrite IH. destruct (span p u). reflexivity.
Qed.

Lemma drop_tail n u x : n <= slen u -> drop n (u ++ x) = drop n u ++ x.
Proof.
  revert u; induction n as [|n IH]; intros u H; [destruct u; reflexivity|].
  destruct u as [|c u]; [cbn in H; lia|]. cbn [append drop]. apply IH. rewrite slen_cons in H. lia.
Qed.

Fixpoint notin (w : ascii) (pat : string) : bool :=
  match pat with "" => true | String c p => negb (Ascii.eqb c w) && notin w p end.

Lemma notin_class (p : ascii -> bool) w pat : p w = false -> all p pat = true -> notin w pat = true.
Proof.
  intros Hw. induction pat as [|c pat IH]; [reflexivity|]. cbn [all notin]. intros H. apply andb_true_iff in H as [H1 H2].
  rewrite (IH H2), Ascii.eqb_sym, (class_neq p w c Hw H1). reflexivity.
Qed.

Lemma starts_tail pat : forall u w r, notin w pat = true -> starts_with pat (u ++ String w r) = starts_with pat u.
Proof.
  unfold starts_with. induction pat as [|c pat IH]; intros u w r H; [destruct u; reflexivity|].
  cbn [notin] in H. apply andb_true_iff in H as [H1 H2].
  destruct u as [|d u]; cbn [append String.prefix].
  - destruct (ascii_dec c w) as [E|N]; [subst w; rewrite Ascii.eqb_refl in H1; discriminate | reflexivity].
  - destruct (ascii_dec c d); [apply IH; exact H2 | reflexivity].
Qed.

Lemma stop_facts w : stopc w = true ->
  is_ident_char w = false /\ is_digit w = false /\ is_alpha_ w = false /\ Ascii.eqb w "." = false /\
  Ascii.eqb w "#" = false.
Proof.
  unfold stopc. intros H. repeat (apply andb_true_iff in H as [H ?]).
  apply negb_true_iff in H. repeat match goal with X : negb _ = true |- _ => apply negb_true_iff in X end.
  unfold is_ident_char in H. apply orb_false_iff in H as [Ha Hd].
  repeat split; try assumption. unfold is_ident_char. rewrite Ha, Hd. reflexivity.
Qed.

Lemma tstart_stop u w : tstart w -> stopb u w = true.
Proof. intros [[ -> | [ -> | -> ] ]|[ -> | -> ]]; reflexivity. Qed.

Lemma ends_e_drop n : forall u, ends_e u = false -> ends_e (drop n u) = false.
Proof.
  induction n as [|n IH]; intros u H; [destruct u; exact H|].
  destruct u as [|c u']; [reflexivity|]. cbn [drop]. apply IH.
  destruct u' as [|d u'']; [reflexivity|]. exact H.
Qed.

Lemma pm_ok_drop n u w : pm_ok u w = true -> pm_ok (drop n u) w = true.
Proof.
  unfold pm_ok. intros H. apply orb_true_iff in H as [H|H]; [rewrite H; reflexivity|].
  apply negb_true_iff in H. rewrite (ends_e_drop n u H). apply orb_true_r.
Qed.

Lemma exponent_tail w r u : stopc w = true -> pm_ok u w = true -> lex_exponent (u ++ String w r) = lex_exponent u.
Proof.
  intros Hs Hpm. destruct (stop_facts w Hs) as (Hi & Hd & Ha & Hdot & Hh).
  assert (He : Ascii.eqb w "e" || Ascii.eqb w "E" = false)
    by (rewrite (class_neq is_alpha_ w "e" Ha eq_refl), (class_neq is_alpha_ w "E" Ha eq_refl); reflexivity).
  unfold lex_exponent. destruct u as [|c u]; cbn [append]; [rewrite He; reflexivity|].
  destruct (Ascii.eqb c "e" || Ascii.eqb c "E") eqn:Ce; [|reflexivity].
  destruct u as [|d u']; cbn [append].
  - assert (Hpmw : Ascii.eqb w "+" || Ascii.eqb w "-" = false).
    { unfold pm_ok in Hpm. cbn [ends_e] in Hpm. rewrite Ce in Hpm. cbn [negb] in Hpm. rewrite orb_false_r in Hpm.
      apply negb_true_iff in Hpm. exact Hpm. }
    rewrite Hpmw. cbn [span]. rewrite Hd. reflexivity.
  - destruct (Ascii.eqb d "+" || Ascii.eqb d "-").
    + rewrite (span_tail is_digit u' w r Hd). destruct (span is_digit u') as [ds rest]. reflexivity.
    + change (String d (u' ++ String w r)) with (String d u' ++ String w r).
      rewrite (span_tail is_digit (String d u') w r Hd). destruct (span is_digit (String d u')) as [ds rest]. reflexivity.
Qed.

Section Tail.
Variable int_suffixes : list (list (list N) * string).
Variable float_suffixes : list (list N * string).
Variable float_is_zero : string -> bool.

(* every character of every integer suffix is a letter *)
Definition suffixes_alpha_all : bool :=
  forallb (fun '(alts, _) => forallb (forallb (fun n => is_alpha_ (ascii_of_N n))) alts) int_suffixes.

Lemma match_tail w r : is_alpha_ w = false -> forall alts u,
  forallb (forallb (fun n => is_alpha_ (ascii_of_N n))) alts = true ->
  match_chars alts (u ++ String w r) = match_chars alts u.
Proof.
  intros Hw. induction alts as [|a alts IH]; intros u Ha; [destruct u; reflexivity|].
  cbn [forallb] in Ha. apply andb_true_iff in Ha as [Ha1 Ha2].
  destruct u as [|c u]; cbn [append match_chars].
  - rewrite (existsb_code_alpha w a Ha1 Hw). reflexivity.
  - rewrite (IH u Ha2). reflexivity.
Qed.

Lemma int_suffix_tail w r u : suffixes_alpha_all = true -> is_alpha_ w = false ->
  int_suffix int_suffixes (u ++ String w r) = int_suffix int_suffixes u.
Proof.
  intros Hs Hw. unfold int_suffix. f_equal. apply (find_ext_checked _ _ _ _ Hs).
  intros [alts k] H. exact (match_tail w r Hw alts u H).
Qed.

Lemma float_suffix_tail w r u : fsuffixes_alpha float_suffixes = true -> is_alpha_ w = false ->
  float_suffix float_suffixes (u ++ String w r) = float_suffix float_suffixes u.
Proof.
  intros Hs Hw. destruct u as [|c u]; [|reflexivity]. cbn [append].
  rewrite (float_suffix_needs_alpha float_suffixes w r Hs Hw). reflexivity.
Qed.

Notation lex_float := (lex_float float_suffixes float_is_zero).
Notation float_finish := (float_finish float_suffixes).
Notation float_inf := (float_inf float_suffixes float_is_zero).
Notation float_rest := (float_rest float_suffixes float_is_zero).

Lemma float_finish_tail u w r tl after mk :
  is_ident_char w = false -> fsuffixes_alpha float_suffixes = true -> after <= slen u ->
  float_finish (u ++ String w r) tl after mk = float_finish u tl after mk.
Proof.
  intros Hi Hfs Hl. pose proof (proj1 (orb_false_elim _ _ Hi)) as Ha. unfold LexerProofs.float_finish. cbv zeta.
  rewrite (drop_tail after u _ Hl), (float_suffix_tail w r (drop after u) Hfs Ha).
  pose proof (float_suffix_len float_suffixes (drop after u)) as Fs. rewrite drop_len in Fs.
  destruct (float_suffix float_suffixes (drop after u)) as [[k n]|].
  - destruct (Fs k n eq_refl) as [-> Hn]. rewrite (drop_tail (after + 1) u _ ltac:(lia)).
    destruct (drop (after + 1) u); cbn [append]; [rewrite Hi|]; reflexivity.
  - rewrite Nat.add_0_r, (drop_tail after u _ Hl). destruct (drop after u); cbn [append]; [rewrite Hi|]; reflexivity.
Qed.

Lemma float_inf_tail u w r ml e :
  stopc w = true -> fsuffixes_alpha float_suffixes = true -> ml + match e with Some n => n | None => 0 end <= slen u ->
  float_inf (u ++ String w r) ml e = float_inf u ml e.
Proof.
  intros Hs Hfs Hl. destruct (stop_facts w Hs) as (Hi & Hd & Ha & Hdot & Hh).
  unfold LexerProofs.float_inf. cbv zeta. set (tl := ml + _) in *.
  assert (Hni : notin w "#INF" = true).
  { cbn [notin]. rewrite (Ascii.eqb_sym "#" w), Hh. exact (notin_class is_alpha_ w "INF" Ha eq_refl). }
  rewrite (substring_app tl u _ Hl), (drop_tail tl u _ Hl), (starts_tail "#INF" (drop tl u) w r Hni).
  pose proof (prefix_len "#INF" (drop tl u)) as Il. rewrite drop_len in Il. change (slen "#INF") with 4 in Il.
  destruct (starts_with "#INF" (drop tl u)); cbn [andb]; [|apply float_finish_tail; assumption].
  destruct (float_is_zero _ || _); [reflexivity|]. apply float_finish_tail; try assumption. specialize (Il eq_refl). lia.
Qed.

Lemma float_rest_tail u w r hf ml :
  stopc w = true -> pm_ok u w = true -> fsuffixes_alpha float_suffixes = true -> ml <= slen u ->
  float_rest (u ++ String w r) hf ml = float_rest u hf ml.
Proof.
  intros Hs Hpm Hfs Hml. unfold LexerProofs.float_rest. cbv zeta.
  rewrite (drop_tail ml u _ Hml), (exponent_tail w r (drop ml u) Hs (pm_ok_drop ml u w Hpm)).
  pose proof (lex_exponent_len (drop ml u)) as El. rewrite drop_len in El.
  destruct (lex_exponent (drop ml u)) as [e|].
  - specialize (El e eq_refl). destruct hf; apply float_inf_tail; try assumption; lia.
  - destruct hf; [apply float_inf_tail; try assumption; lia | reflexivity].
Qed.

Theorem lex_float_tail u w r :
  stopc w = true -> pm_ok u w = true -> fsuffixes_alpha float_suffixes = true -> lex_float (u ++ String w r) = lex_float u.
Proof.
  intros Hs Hpm Hfs. destruct (stop_facts w Hs) as (Hi & Hd & Ha & Hdot & Hh).
  rewrite !lex_float_unfold.
  rewrite (span_tail is_digit u w r Hd).
  pose proof (span_len is_digit u) as L0.
  destruct (span is_digit u) as [W R]. cbn [fst snd] in *.
  destruct R as [|d R'].
  - cbn [append]. rewrite Hdot. apply float_rest_tail; try assumption. cbn in L0. lia.
  - cbn [append]. destruct (Ascii.eqb d ".").
    + rewrite (span_tail is_digit R' w r Hd).
      pose proof (span_len is_digit R') as L1.
      destruct (span is_digit R') as [fr x]. cbn [fst snd] in *.
      apply float_rest_tail; try assumption. rewrite slen_cons in L0. lia.
    + apply float_rest_tail; try assumption. lia.
Qed.

Notation lex_int := (lex_int int_suffixes).
Notation int_go := (int_go int_suffixes).

(* an integer recogniser that finds no digit reports EndOfStream at the end of the input and UnexpectedBytes before it *)
Definition fix_eos (skip : nat) (x : lres) : lres :=
  match x with LErr EndOfStream _ => LErr UnexpectedBytes skip | _ => x end.

Lemma int_go_tail u w r skip base dv :
  suffixes_alpha_all = true -> is_alpha_ w = false -> dv w = None -> skip <= slen u ->
  int_go (u ++ String w r) skip base dv = fix_eos skip (int_go u skip base dv).
Proof.
  intros Hs Ha Hdv Hsk. unfold LexerProofs.int_go. cbv zeta.
  rewrite (drop_tail skip u (String w r) Hsk).
  set (p := fun c : ascii => match dv c with Some _ => true | None => false end).
  assert (Hp : p w = false) by (unfold p; rewrite Hdv; reflexivity).
  rewrite (span_tail p (drop skip u) w r Hp).
  destruct (span p (drop skip u)) as [ds rest] eqn:Sp. cbn [fst snd].
  destruct ds as [|d ds'].
  - destruct (drop skip u) as [|b B]; cbn [append fix_eos]; reflexivity.
  - destruct (accum base dv (String d ds') 0%N) as [v|]; [|reflexivity].
    rewrite (int_suffix_tail w r rest Hs Ha).
    destruct (int_token _ v); reflexivity.
Qed.

Definition int_skip (u : string) : nat :=
  if starts_with "0x" u then 2
  else match u with
       | String z (String c _) => if Ascii.eqb z "0" && is_octal c then 1 else 0
       | _ => 0
       end.

Lemma not_ident_hex w : is_digit w = false -> is_alpha_ w = false -> hex_val w = None.
Proof.
  unfold hex_val, is_alpha_, is_digit. intros Hd Ha.
  destruct ((48 <=? code w)%N && (code w <=? 57)%N); [discriminate Hd|].
  destruct ((65 <=? code w)%N && (code w <=? 70)%N) eqn:U.
  { exfalso. apply andb_true_iff in U as [U1 U2]. apply N.leb_le in U1, U2.
    assert (X : ((65 <=? code w)%N && (code w <=? 90)%N) = true) by (apply andb_true_iff; split; apply N.leb_le; lia).
    rewrite X in Ha. discriminate Ha. }
  destruct ((97 <=? code w)%N && (code w <=? 102)%N) eqn:L; [|reflexivity].
  exfalso. apply andb_true_iff in L as [L1 L2]. apply N.leb_le in L1, L2.
  assert (X : ((97 <=? code w)%N && (code w <=? 122)%N) = true) by (apply andb_true_iff; split; apply N.leb_le; lia).
  rewrite X in Ha. rewrite orb_true_r in Ha. discriminate Ha.
Qed.

Lemma lex_int_tail u w r :
  suffixes_alpha_all = true -> stopc w = true ->
  lex_int (u ++ String w r) = fix_eos (int_skip u) (lex_int u).
Proof.
  intros Hs Hst. destruct (stop_facts w Hst) as (Hi & Hd & Ha & Hdot & Hh).
  assert (Hhex := not_ident_hex w Hd Ha). assert (Hoct := not_digit_octal w Hd).
  assert (Hdec : dec_val w = None) by (unfold dec_val; rewrite Hd; reflexivity).
  assert (Hocv : oct_val w = None) by (unfold oct_val; rewrite Hoct; reflexivity).
  rewrite !lex_int_unfold. unfold int_skip.
  rewrite (starts_tail "0x" u w r (notin_class is_ident_char w "0x" Hi eq_refl)).
  pose proof (prefix_len "0x" u) as Xl.
  destruct (starts_with "0x" u); [apply int_go_tail; try assumption; exact (Xl eq_refl)|].
  (* the decimal and the octal branch, before u is taken apart to see which of them is chosen *)
  assert (D := int_go_tail u w r 0 10%N dec_val Hs Ha Hdec (Nat.le_0_l _)).
  assert (Oct := int_go_tail u w r 1 8%N oct_val Hs Ha Hocv).
  destruct u as [|z [|c u'']]; cbn [append] in *.
  - destruct r as [|c r']; [exact D|]. rewrite (class_neq is_digit w "0" Hd eq_refl). exact D.
  - rewrite Hoct, andb_false_r. exact D.
  - destruct (Ascii.eqb z "0" && is_octal c); [apply Oct; rewrite !slen_cons; lia | exact D].
Qed.

End Tail.

Section Number.
Variable keywords : list (string * string).
Variable reserved_words : list string.
Variable symbols : list (N * string * option string * option string).
Variable int_suffixes : list (list (list N) * string).
Variable float_suffixes : list (list N * string).
Variable float_is_zero : string -> bool.
Variable utf8_ok : string -> bool.
Notation tok_at := (tok_at keywords reserved_words symbols int_suffixes float_suffixes float_is_zero utf8_ok).
Notation lex_file := (lex_file keywords reserved_words symbols int_suffixes float_suffixes float_is_zero utf8_ok).
Notation Pre2 := (Pre2 keywords reserved_words symbols int_suffixes float_suffixes float_is_zero utf8_ok).
Notation Good := (Good keywords reserved_words symbols int_suffixes float_suffixes float_is_zero utf8_ok).
Notation stable := (stable keywords reserved_words symbols int_suffixes float_suffixes float_is_zero utf8_ok).

Theorem numeric_token_ignores_tail c u' w1 r1 w2 r2 :
  suffixes_alpha_all int_suffixes = true -> fsuffixes_alpha float_suffixes = true ->
  is_digit c = true -> stopb (String c u') w1 = true -> stopb (String c u') w2 = true ->
  tok_at false (String c u' ++ String w1 r1) = tok_at false (String c u' ++ String w2 r2).
Proof.
  intros Hs Hfs Hc H1 H2. unfold stopb in H1, H2. apply andb_true_iff in H1 as [H1 P1]. apply andb_true_iff in H2 as [H2 P2].
  cbn [append]. rewrite !(tok_at_digit _ _ _ Hc).
  change (String c (u' ++ String w1 r1)) with (String c u' ++ String w1 r1).
  change (String c (u' ++ String w2 r2)) with (String c u' ++ String w2 r2).
  rewrite (lex_float_tail float_suffixes float_is_zero (String c u') w1 r1 H1 P1 Hfs).
  rewrite (lex_float_tail float_suffixes float_is_zero (String c u') w2 r2 H2 P2 Hfs).
  rewrite (lex_int_tail int_suffixes (String c u') w1 r1 Hs H1), (lex_int_tail int_suffixes (String c u') w2 r2 Hs H2). reflexivity.
Qed.

Lemma number_stable c a' t w0 r0 :
  suffixes_alpha_all int_suffixes = true -> fsuffixes_alpha float_suffixes = true ->
  is_digit c = true -> stopb (String c a') w0 = true ->
  tok_at false (String c a' ++ String w0 r0) = LOk t (slen (String c a')) ->
  stable (fun w => stopb (String c a') w = true) (String c a') t.
Proof. intros Hs Hfs Hc H0 T w r Hw. rewrite (numeric_token_ignores_tail c a' w r w0 r0 Hs Hfs Hc Hw H0). exact T. Qed.

Lemma pre2_number nxt c a' t w0 r0 p :
  suffixes_alpha_all int_suffixes = true -> fsuffixes_alpha float_suffixes = true ->
  is_digit c = true -> stopb (String c a') w0 = true ->
  tok_at false (String c a' ++ String w0 r0) = LOk t (slen (String c a')) ->
  stopb (String c a') (next_char nxt p) = true ->
  Pre2 nxt p -> Pre2 nxt (String c a' ++ p).
Proof. intros Hs Hfs Hc H0 T. exact (pre2_stable _ nxt c a' t p (number_stable c a' t w0 r0 Hs Hfs Hc H0 T)). Qed.

Lemma good_number nxt c a' t w0 r0 ins es :
  suffixes_alpha_all int_suffixes = true -> fsuffixes_alpha float_suffixes = true ->
  is_digit c = true -> stopb (String c a') w0 = true ->
  tok_at false (String c a' ++ String w0 r0) = LOk t (slen (String c a')) ->
  stopb (String c a') (next_char nxt (txt es)) = true ->
  Good nxt es -> Good nxt (ETok c a' t ins :: es).
Proof.
  intros Hs Hfs Hc H0 T He G.
  apply (GTok _ _ _ _ _ _ _ nxt c a' t ins (fun w => stopb (String c a') w = true) es); [|exact He| |exact G].
  - exact (number_stable c a' t w0 r0 Hs Hfs Hc H0 T).
  - intros _ w. apply tstart_stop.
Qed.

Theorem trivia_after_number_behind_prefix2 p c a' t w0 r0 x spans :
  suffixes_alpha_all int_suffixes = true -> fsuffixes_alpha float_suffixes = true ->
  Pre2 c p -> is_digit c = true -> stopb (String c a') w0 = true ->
  tok_at false (String c a' ++ String w0 r0) = LOk t (slen (String c a')) ->
  Trivia x ->
  lex_file (p ++ String c a' ++ String w0 r0) = SOk spans ->
  exists spans', lex_file (p ++ String c a' ++ x ++ String w0 r0) = SOk spans' /\ strip (toks spans') = strip (toks spans).
Proof.
  intros Hs Hfs Pp Hc H0 T.
  exact (trivia_behind_stable _ p c a' t _ x spans Pp (number_stable c a' t w0 r0 Hs Hfs Hc H0 T) (tstart_stop _) T).
Qed.

End Number.

Arguments pre2_number [keywords reserved_words symbols int_suffixes float_suffixes float_is_zero utf8_ok].
Arguments good_number [keywords reserved_words symbols int_suffixes float_suffixes float_is_zero utf8_ok].
