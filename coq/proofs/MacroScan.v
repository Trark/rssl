(* MacroScan.v — what one iteration of the scan loop of Macro.v does: it stops on text in which no macro can be
   invoked, and it replaces the first use of an object-like (step_obj) or function-like (step_fn) macro behind such
   text.  For every disabled set and every scan position; nothing is asked of the text behind the use. *)
From Coq Require Import List Bool String Arith Lia.
From RV Require Import Macro MacroParts MacroSubst.
Import ListNotations.
Local Open Scope list_scope.

Section Scan.
Variable paste : mtok -> mtok -> option mtok.
Variable defs : list macro.
Notation plain := (plain defs).

Definition balanced (a : list mtok) : Prop := depth_after 0 a = Some 0.
Definition noarg (l : list mtok) : Prop := forall i, ~ In (MArg i) l.
Definition first_named (mi : nat) (m : macro) : Prop :=
  nth_error defs mi = Some m /\
  forall j m', j < mi -> nth_error defs j = Some m' -> String.eqb (m_name m) (m_name m') = false.
(* tokens that are plain or one of the names in X *)
Definition among (X : list string) (l : list mtok) : Prop :=
  forall t, In t l -> plainb defs t = true \/ exists x, In x X /\ t = MId x.

Lemma pick_blocked dis x after i next lastfn ds mi0 :
  (forall k m', nth_error ds k = Some m' ->
     String.eqb x (m_name m') = false \/ nth (mi0 + k) dis false = true \/ (m_fn m' = false /\ i < next)) ->
  pick_macro ds dis mi0 x after i next lastfn = None.
Proof. intros H. apply pick_none. intros k m Hk. apply usable_blocked, (H k m Hk). Qed.

Lemma find_from_pass dis X next lastfn : forall seg l before i, among X seg ->
  (forall x after j, In x X -> i <= j < i + List.length seg -> pick_macro defs dis 0 x after j next lastfn = None) ->
  find_from defs dis before (seg ++ l) i next lastfn =
  find_from defs dis (rev seg ++ before) l (i + List.length seg) next lastfn.
Proof.
  induction seg as [|t r IH]; intros l before i Hseg Hpick; cbn [app rev List.length].
  - rewrite Nat.add_0_r. reflexivity.
  - replace (i + S (List.length r)) with (S i + List.length r) by lia. rewrite <- app_assoc. cbn [app].
    assert (Hr : find_from defs dis (t :: before) (r ++ l) (S i) next lastfn =
                 find_from defs dis (rev r ++ t :: before) l (S i + List.length r) next lastfn).
    { apply IH; [intros t' Ht'; apply Hseg; right; exact Ht'|].
      intros x after j Hx Hj. apply Hpick; [exact Hx | cbn [List.length]; lia]. }
    destruct (Hseg t (or_introl eq_refl)) as [Hp|(x & Hx & ->)].
    + destruct t; try discriminate Hp; cbn [find_from]; try exact Hr.
      cbn [plainb] in Hp. apply negb_true_iff in Hp. rewrite pick_blocked; [exact Hr|].
      intros k m' Hk. left. apply (is_name_false defs s Hp k m' Hk).
    + cbn [find_from]. rewrite (Hpick x) by (try exact Hx; cbn [List.length]; lia). exact Hr.
Qed.

Lemma plain_among X l : plain l -> among X l.
Proof. intros H t Ht. left. apply (proj1 (plain_forall defs l) H t Ht). Qed.
Lemma among_app X a b : among X a -> among X b -> among X (a ++ b).
Proof. intros Ha Hb t Ht. apply in_app_or in Ht as [Ht|Ht]; [apply Ha | apply Hb]; exact Ht. Qed.
Lemma among_noarg X l : among X l -> noarg l.
Proof. intros H i Hi. destruct (H _ Hi) as [Hp|(x & _ & Hx)]; discriminate. Qed.

Lemma plain_noarg l : plain l -> noarg l.
Proof. intros H. apply (among_noarg []), plain_among, H. Qed.

Lemma subst_noarg body args : noarg body -> subst body args = body.
Proof.
  induction body as [|t r IH]; intros H; [reflexivity|].
  assert (Hr : noarg r) by (intros i Hi; apply (H i); right; exact Hi).
  destruct t; cbn [subst]; rewrite ?(IH Hr); try reflexivity.
  exfalso. apply (H i). left; reflexivity.
Qed.

Lemma expand_plain d dis n toks next early lastfn : plain toks ->
  expand paste defs (S d) dis (S n) toks next early lastfn = XOk toks.
Proof.
  intros H. rewrite expand_eq. unfold loop_step. destruct (Nat.leb _ _); [reflexivity|].
  unfold find. rewrite <- (app_nil_r (skipn early toks)).
  rewrite (find_from_pass dis [] next lastfn _ [] _ early); [reflexivity | apply plain_among, plain_skipn, H | intros x after j []].
Qed.

Lemma find_use dis pre mi m rest next early lastfn :
  first_named mi m -> nth mi dis false = false ->
  (m_fn m = true -> exists post, rest = MLP :: post) ->
  plain (skipn early pre) -> next <= List.length pre -> early <= List.length pre ->
  find defs dis (pre ++ MId (m_name m) :: rest) early next lastfn = FUser mi (List.length pre).
Proof.
  intros [Hn Hfirst] Hd Hfn Hp Hnext Hearly. unfold find.
  rewrite skipn_app. replace (early - List.length pre) with 0 by lia. cbn [skipn].
  rewrite (find_from_pass dis [] next lastfn _ _ _ early (plain_among [] _ Hp)) by (intros x after j []).
  rewrite skipn_length. replace (early + (List.length pre - early)) with (List.length pre) by lia.
  cbn [find_from].
  rewrite (pick_first dis (m_name m) rest (List.length pre) next lastfn defs 0 mi m Hn); [reflexivity | |].
  - apply usable_here; trivial.
  - intros j m' Hj Hn'. apply usable_blocked. left. apply (Hfirst j m' Hj Hn').
Qed.

Lemma step_obj d dis n pre mi m rest next early lastfn out :
  first_named mi m -> m_fn m = false -> nth mi dis false = false ->
  plain (skipn early pre) -> next <= List.length pre -> early <= List.length pre ->
  (let sb := subst (m_body m) [] in
   expand paste defs d (set_nth dis mi true) (S (List.length sb)) sb 0 0 None = XOk out) ->
  expand paste defs (S d) dis (S n) (pre ++ MId (m_name m) :: rest) next early lastfn =
  expand paste defs (S d) dis n (pre ++ out ++ rest) (List.length pre + List.length out) (List.length pre) None.
Proof.
  intros Hfm Hf Hd Hp Hnext Hearly Hinner. cbv zeta in Hinner.
  rewrite expand_eq. unfold loop_step.
  destruct (Nat.leb_spec (List.length (pre ++ MId (m_name m) :: rest)) next) as [Hz|_];
    [rewrite app_length in Hz; cbn in Hz; lia|].
  rewrite (find_use dis pre mi m rest next early lastfn Hfm Hd) by (assumption || congruence).
  destruct Hfm as [Hn _]. rewrite Hn, Hf. cbn [map all_ok rev].
  rewrite Hinner.
  destruct (split_at _ pre (MId (m_name m)) rest (List.length pre) eq_refl eq_refl) as (-> & -> & _).
  reflexivity.
Qed.

Lemma split_go_commas_bal : forall args post acc, args <> [] -> Forall balanced args ->
  split_args_go (commas args ++ MRP :: post) [] 0 acc = Some (post, rev acc ++ map trim args).
Proof.
  induction args as [|a r IH]; intros post acc Hne Hs; [congruence|].
  inversion Hs as [|? ? Ha Hr]; subst.
  destruct r as [|b r'].
  - cbn [commas map]. rewrite (split_go_depth a 0 0 (MRP :: post) [] acc Ha). cbn [split_args_go].
    rewrite app_nil_r, rev_involutive. cbn [rev]. reflexivity.
  - change (commas (a :: b :: r')) with (a ++ MComma :: commas (b :: r')).
    rewrite <- app_assoc. cbn [app].
    rewrite (split_go_depth a 0 0 _ [] acc Ha). cbn [split_args_go Nat.eqb].
    rewrite app_nil_r, rev_involutive.
    rewrite (IH post (trim a :: acc) ltac:(discriminate) Hr).
    cbn [rev map]. rewrite <- app_assoc. reflexivity.
Qed.

Lemma step_fn d dis n pre mi m args args' rest next early lastfn out :
  first_named mi m -> m_fn m = true -> nth mi dis false = false ->
  args <> [] -> List.length args = m_params m -> Forall balanced args ->
  plain (skipn early pre) -> next <= List.length pre -> early <= List.length pre ->
  Forall2 (fun a a' => expand paste defs (S d) dis n a 0 0 None = XOk a') (map trim args) args' ->
  (let sb := subst (m_body m) args' in
   expand paste defs d (set_nth dis mi true) (S (List.length sb)) sb 0 0 None = XOk out) ->
  expand paste defs (S d) dis (S n) (pre ++ MId (m_name m) :: MLP :: commas args ++ MRP :: rest) next early lastfn =
  expand paste defs (S d) dis n (pre ++ out ++ rest) (List.length pre + List.length out) (List.length pre) (Some mi).
Proof.
  intros Hfm Hf Hd Hne Hlen Hbal Hp Hnext Hearly Hargs Hinner. cbv zeta in Hinner.
  rewrite expand_eq. unfold loop_step.
  destruct (Nat.leb_spec (List.length (pre ++ MId (m_name m) :: MLP :: commas args ++ MRP :: rest)) next) as [Hz|_];
    [rewrite app_length in Hz; cbn in Hz; lia|].
  rewrite (find_use dis pre mi m _ next early lastfn Hfm Hd) by (assumption || (intros _; eexists; reflexivity)).
  destruct Hfm as [Hn _]. rewrite Hn, Hf.
  destruct (split_at _ pre (MId (m_name m)) (MLP :: commas args ++ MRP :: rest) (List.length pre) eq_refl eq_refl)
    as (-> & -> & _).
  unfold split_args. cbn [trim_start_all is_ws].
  rewrite (split_go_commas_bal args rest [] Hne Hbal). cbn [rev app].
  assert (Hp0 : Nat.eqb (m_params m) 0 = false).
  { apply Nat.eqb_neq. rewrite <- Hlen. destruct args; [congruence | cbn; lia]. }
  rewrite Hp0, map_length, Hlen, Nat.eqb_refl.
  rewrite (all_ok_forall2 _ _ args' Hargs). cbn [rev app].
  rewrite Hinner. reflexivity.
Qed.

End Scan.
