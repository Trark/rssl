(* LexerTrivia2.v — layout trivia: blanks, block comments, line comments with their line feed, line splices, and runs
   of them, in the terms of LexerTrivia (`Lexes`, `Frame`).  Each piece lexes to whitespace tokens in front of every continuation (frame_piece), so a run does
   (frame_trivia); inserting a run in front of a text therefore keeps the tokens that are not whitespace
   (trivia_in_front), and so does inserting it behind a token that is still read the same in front of it (insert_core).
   Also the definition of a prefix of blank-separated tokens (`Spaced`). *)
From Coq Require Import List NArith Bool String Ascii Arith Lia.
From RV Require Import Lexer LexerProofs LexerTrivia.
Import ListNotations.
Local Open Scope string_scope.

(* text of a line comment: no line feed, no carriage return, no backslash (a backslash may splice the next line in) *)
Definition plain_char (c : ascii) : bool :=
  negb (Ascii.eqb c "010") && negb (Ascii.eqb c "013") && negb (Ascii.eqb c "\").

(* whether the closing star-slash occurs in s (the body of a block comment must not hold it) *)
Fixpoint has_close (s : string) : bool :=
  match s with
  | String c r => match r with
                  | String d _ => (Ascii.eqb c "*" && Ascii.eqb d "/") || has_close r
                  | EmptyString => false
                  end
  | EmptyString => false
  end.

Inductive Piece : string -> Prop :=
| PBlank w : blank w -> Piece (String w "")
| PSplice : Piece (String "\" (String "010" ""))
| PBlock body : has_close body = false -> Piece ("/*" ++ body ++ "*/")
| PLine text : all plain_char text = true -> Piece ("//" ++ text ++ String "010" "").

Inductive Trivia : string -> Prop :=
| TrOne x : Piece x -> Trivia x
| TrMore x y : Piece x -> Trivia y -> Trivia (x ++ y).

Lemma block_end_body body : has_close body = false -> forall b, block_end (body ++ "*/" ++ b) = Some (slen body + 2).
Proof.
  induction body as [|c r IH]; intros Hc b.
  - reflexivity.
  - cbn [append block_end].
    destruct r as [|d r'].
    + (* last character of the body, then the closing star *)
      cbn [append]. cbn [has_close] in Hc.
      assert (E : Ascii.eqb c "*" && Ascii.eqb "*" "/" = false) by (rewrite andb_false_r; reflexivity).
      rewrite E. specialize (IH eq_refl b). cbn [append] in IH. rewrite IH. reflexivity.
    + cbn [append]. cbn [has_close] in Hc. apply orb_false_iff in Hc as [H1 H2].
      rewrite H1. specialize (IH H2 b). cbn [append] in IH. rewrite IH. cbn [option_map slen String.length]. reflexivity.
Qed.

Lemma line_len_text text : all plain_char text = true -> forall b, line_comment_len (text ++ String "010" b) = slen text.
Proof.
  induction text as [|c r IH]; intros Ha b.
  - reflexivity.
  - cbn [all] in Ha. apply andb_true_iff in Ha as [Hc Hr]. unfold plain_char in Hc.
    apply andb_true_iff in Hc as [Hc H3]. apply andb_true_iff in Hc as [H1 H2].
    apply negb_true_iff in H1, H2, H3.
    cbn [append line_comment_len]. rewrite H1, H2, H3. cbn [andb]. rewrite (IH Hr b). reflexivity.
Qed.

Section Trivia2.
Variable keywords : list (string * string).
Variable reserved_words : list string.
Variable symbols : list (N * string * option string * option string).
Variable int_suffixes : list (list (list N) * string).
Variable float_suffixes : list (list N * string).
Variable float_is_zero : string -> bool.
Variable utf8_ok : string -> bool.

Notation tok_at := (tok_at keywords reserved_words symbols int_suffixes float_suffixes float_is_zero utf8_ok).
Notation Lexes := (Lexes keywords reserved_words symbols int_suffixes float_suffixes float_is_zero utf8_ok).
Notation lex_file := (lex_file keywords reserved_words symbols int_suffixes float_suffixes float_is_zero utf8_ok).
Notation Frame := (Frame keywords reserved_words symbols int_suffixes float_suffixes float_is_zero utf8_ok).

Lemma tok_block body b : has_close body = false ->
  tok_at false (("/*" ++ body ++ "*/") ++ b) = LOk TComment (slen ("/*" ++ body ++ "*/")).
Proof.
  intros Hb. cbn [append]. rewrite sapp_assoc.
  assert (E : forall r, tok_at false (String "/" (String "*" r)) =
              match block_end r with Some n => LOk TComment (2 + n) | None => LErr EndOfStream (slen (String "/" (String "*" r))) end)
    by (destruct r; reflexivity).
  rewrite E, (block_end_body body Hb b), !slen_cons, slen_app. reflexivity.
Qed.

Lemma tok_line text b : all plain_char text = true ->
  tok_at false ("//" ++ text ++ String "010" b) = LOk TComment (2 + slen text).
Proof.
  intros Ht. cbn [append].
  assert (E : forall r, tok_at false (String "/" (String "/" r)) = LOk TComment (2 + line_comment_len r)) by (destruct r; reflexivity).
  rewrite E, (line_len_text text Ht b). reflexivity.
Qed.

Lemma frame_piece x : Piece x -> exists ws fl, strip ws = [] /\ Frame (fun _ => True) x ws fl.
Proof.
  intros [w Bw| |body Hb|text Ht].
  - exists [ws_tok w], (is_endline (ws_tok w)). split; [unfold strip; cbn [filter]; rewrite ws_tok_ws; reflexivity|].
    apply frame_tok. intros b _. apply blank_token, Bw.
  - exists [TPhysicalEndline], false. split; [reflexivity|]. apply (frame_tok _ _ TPhysicalEndline). reflexivity.
  - exists [TComment], false. split; [reflexivity|]. apply (frame_tok _ _ TComment). intros b _. apply tok_block, Hb.
  - exists [TComment; TEndline], true. split; [reflexivity|].
    (* the comment in front of its line feed, then the line feed *)
    apply (frame_app (starts "010") _ ("//" ++ text) (String "010" "") [TComment] [TEndline] false true).
    + apply (frame_tok _ _ TComment). intros b (r & ->). rewrite sapp_assoc. apply tok_line, Ht.
    + apply (frame_tok _ _ TEndline). reflexivity.
    + intros b _. exists b. reflexivity.
Qed.

Lemma piece_first x : Piece x -> exists t n, forall b, tok_at false (x ++ b) = LOk t n.
Proof.
  intros [w Bw| |body Hb|text Ht].
  - exists (ws_tok w), 1. intros b. apply blank_token, Bw.
  - exists TPhysicalEndline, 2. reflexivity.
  - eexists _, _. intros b. apply tok_block, Hb.
  - exists TComment, (2 + slen text). intros b. rewrite !sapp_assoc. apply tok_line, Ht.
Qed.

Lemma frame_trivia x : Trivia x -> exists ws fl, strip ws = [] /\ Frame (fun _ => True) x ws fl.
Proof.
  induction 1 as [x P|x y P Ty (ws2 & fl2 & S2 & F2)]; [apply frame_piece, P|].
  destruct (frame_piece x P) as (ws1 & fl1 & S1 & F1).
  exists (ws1 ++ ws2)%list, fl2. split; [rewrite strip_app, S1, S2; reflexivity|].
  apply (frame_app _ _ _ _ _ _ _ _ F1 F2). trivial.
Qed.

Lemma trivia_in_front x : Trivia x -> forall b f l, Lexes b f l ->
  forall f', exists l', Lexes (x ++ b) f' l' /\ strip l' = strip l.
Proof.
  intros Tx b f l L f'. destruct (frame_trivia x Tx) as (ws & fl & Sw & F).
  destruct (lexes_flag _ _ _ L fl) as (l2 & L2 & S2).
  exists (ws ++ l2)%list. split; [apply F; eauto | rewrite strip_app, Sw; exact S2].
Qed.

Lemma insert_core a b x t :
  tok_at false (a ++ b) = LOk t (slen a) -> tok_at false (a ++ x ++ b) = LOk t (slen a) -> Trivia x ->
  forall last l, Lexes (a ++ b) last l ->
  exists ts ts', l = t :: ts /\ Lexes (a ++ x ++ b) last (t :: ts') /\ strip ts' = strip ts.
Proof.
  intros T T' Tx last l L. apply (Lexes_step _ _ _ _ T) in L as (ts & -> & L). rewrite drop_app in L.
  destruct (trivia_in_front x Tx _ _ _ L (is_endline t)) as (ts' & L' & S').
  exists ts, ts'. split; [reflexivity|]. split; [|exact S'].
  apply (Lexes_step _ _ _ _ T'). exists ts'. rewrite drop_app. auto.
Qed.

Lemma insert_after a b x t last ts :
  tok_at false (a ++ b) = LOk t (slen a) -> tok_at false (a ++ x ++ b) = LOk t (slen a) -> Trivia x ->
  Lexes (a ++ b) last (t :: ts) ->
  exists ts', Lexes (a ++ x ++ b) last (t :: ts') /\ strip ts' = strip ts.
Proof.
  intros T T' Tx L. destruct (insert_core a b x t T T' Tx last _ L) as (ts0 & ts' & E & L' & S').
  injection E as <-. eauto.
Qed.

Theorem trivia_at_start x s spans :
  Trivia x -> lex_file s = SOk spans ->
  exists spans', lex_file (x ++ s) = SOk spans' /\ strip (toks spans') = strip (toks spans).
Proof. intros Tx. apply lex_file_lift. intros l L. exact (trivia_in_front x Tx _ _ _ L true). Qed.

(* a prefix of blank-separated tokens: its text and the tokens it stands for (the blanks between them left out) *)
Inductive Spaced : string -> list tok -> Prop :=
| SpNil : Spaced "" []
| SpCons c a' w t p ts :
    tok_at false (String c a' ++ String w "") = LOk t (slen (String c a')) -> solid t = true -> blank w ->
    Spaced p ts -> Spaced (String c a' ++ String w p) (t :: ts).

End Trivia2.

Arguments insert_core [keywords reserved_words symbols int_suffixes float_suffixes float_is_zero utf8_ok].
Arguments insert_after [keywords reserved_words symbols int_suffixes float_suffixes float_is_zero utf8_ok].
