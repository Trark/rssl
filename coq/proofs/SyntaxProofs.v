(* SyntaxProofs.v — the parser model reads back every expression tree from the token text of the
   level-directed printer `pr` (an operand in parentheses exactly when its level exceeds that of its position),
   provided no `>` stands directly before a `(`.  Generic in the operator tables. *)
From Coq Require Import List NArith Bool String Ascii Lia Arith.
From RV Require Import Syntax.
Import ListNotations.
Local Open Scope list_scope.

Definition sy (s : string) : tok := TSym s.

Section Proofs.

Variable G : string -> bool.

Variable prefix_of : string -> option string.

Variable postfix_of : string -> option string.

Variable bin_at : nat -> string -> option string.

Variable uop : string -> bool.

Variable upost : string -> bool.

Variable usp : string -> string.

Variable bop : string -> bool.

Variable blv : string -> nat.

Variable bsp : string -> string.

(* expr_pN of a level: 13 (assignment, conditional) is expr_p14, 14 is expr_p15 *)
Definition pN (l : nat) : nat := if Nat.leb l 12 then l else S l.

(* level of a node: 0 atom, 1 postfix, 2 prefix, 3..12 binary, 13 assignment/conditional, 14 sequence *)
Definition el (e : expr) : nat :=
  match e with
  | EId _ | ELit _ _ => 0
  | EUn o _ => if upost o then 1 else 2
  | EBin o _ _ => blv o
  | ETern _ _ _ => 13
  | ESub _ _ | EMem _ _ | ECall _ _ => 1
  | ECast _ _ => 2
  end.

Definition lctx (o : string) : nat := if Nat.eqb (blv o) 13 then 12 else blv o.

Definition rctx (o : string) : nat := if Nat.eqb (blv o) 13 then 13 else Nat.pred (blv o).

Definition wrap (c : nat) (a : expr) (r : list tok) : list tok :=
  if Nat.leb (el a) c then r else sy "(" :: r ++ [sy ")"].

Fixpoint commas (l : list (list tok)) : list tok :=
  match l with
  | [] => []
  | [x] => x
  | x :: r => x ++ sy "," :: commas r
  end.

Fixpoint raw (e : expr) : list tok :=
  match e with
  | EId x => [TId x]
  | ELit i x => [TLit i x]
  | EUn o a => if upost o then wrap 1 a (raw a) ++ [sy (usp o)] else sy (usp o) :: wrap 2 a (raw a)
  | EBin o a b => wrap (lctx o) a (raw a) ++ sy (bsp o) :: wrap (rctx o) b (raw b)
  | ETern c a b => wrap 12 c (raw c) ++ sy "?" :: wrap 13 a (raw a) ++ sy ":" :: wrap 13 b (raw b)
  | ESub a i => wrap 1 a (raw a) ++ sy "[" :: wrap 1 i (raw i) ++ [sy "]"]
  | EMem a m =>
      (match a with ELit true _ => sy "(" :: raw a ++ [sy ")"] | _ => wrap 1 a (raw a) end) ++ [sy "."; TId m]
  | ECall f args => wrap 1 f (raw f) ++ sy "(" :: commas (map (fun a => wrap 13 a (raw a)) args) ++ [sy ")"]
  | ECast t a => sy "(" :: TId t :: sy ")" :: wrap 2 a (raw a)
  end.

Definition pr (c : nat) (e : expr) : list tok := wrap c e (raw e).

Fixpoint wf (e : expr) : Prop :=
  match e with
  | EId x => G x = false
  | ELit _ _ => True
  | EUn o a => uop o = true /\ wf a
  | EBin o a b => bop o = true /\ wf a /\ wf b
  | ETern c a b => wf c /\ wf a /\ wf b
  | ESub a i => wf a /\ wf i
  | EMem a _ => wf a
  | ECall f args => wf f /\ (fix all (l : list expr) : Prop := match l with [] => True | x :: r => wf x /\ all r end) args
  | ECast t a => G t = true /\ wf a
  end.

Definition special (s : string) : bool :=
  existsb (String.eqb s) ["("; ")"; "["; "]"; "."; "?"; ":"]%string.

Hypothesis Hprefix : forall o, uop o = true -> upost o = false -> prefix_of (usp o) = Some o.

Hypothesis Hpostfix : forall o, uop o = true -> upost o = true -> postfix_of (usp o) = Some o.

Hypothesis Hpostfix_inv : forall s o, postfix_of s = Some o -> special s = false /\ (forall n, bin_at n s = None).

Hypothesis Hprefix_paren : prefix_of "(" = None.

Hypothesis Hbin : forall o, bop o = true -> 3 <= blv o <= 14 /\ bin_at (pN (blv o)) (bsp o) = Some o /\ special (bsp o) = false.

Hypothesis Hbin_inv : forall n s o, bin_at n s = Some o -> bop o = true /\ bsp o = s /\ n = pN (blv o).

Hypothesis Hbin_level : forall o o', bop o = true -> bop o' = true -> bsp o = bsp o' -> blv o = blv o'.

Hypothesis Hcomma : forall o, bop o = true -> bsp o = ","%string -> blv o = 14.

Hypothesis Huop_special : forall o, uop o = true -> special (usp o) = false.

Hypothesis Hpostfix_comma : postfix_of "," = None.

Definition infix_go (s : string) :=
  fix go (n : nat) : option nat :=
    match n with
    | O => None
    | S n' => match bin_at (pN n) s with Some _ => Some n | None => go n' end
    end.

Definition infix_lv (s : string) : option nat := infix_go s 14.

Definition postfix_start (s : string) : bool :=
  match postfix_of s with Some _ => true | None => existsb (String.eqb s) ["."; "["; "("]%string end.

Definition trank (t : tok) : nat :=
  match t with
  | TSym s =>
      match infix_lv s with
      | Some l => l
      | None => if postfix_start s then 1 else if String.eqb s "?" then 13 else 0
      end
  | _ => 0
  end.

Definition hrank (k : list tok) : nat := match k with t :: _ => trank t | [] => 0 end.

(* the loops of the levels up to c end in front of k: no operator of level <= c starts it *)
Definition stops (c : nat) (k : list tok) : Prop := hrank k = 0 \/ c < hrank k.

(* k may follow an operand in a position of level c; level 13 groups to the right *)
Definition ok (c : nat) (k : list tok) : Prop := stops (if Nat.eqb c 13 then 13 else Nat.pred c) k.

Lemma pN_inj a b : pN a = pN b -> a = b.
Proof. unfold pN. destruct (Nat.leb_spec a 12), (Nat.leb_spec b 12); lia. Qed.

Lemma special_no_bin s n : special s = true -> bin_at n s = None.
Proof.
  intros Hs. destruct (bin_at n s) as [o|] eqn:Hb; [|reflexivity].
  destruct (Hbin_inv _ _ _ Hb) as (Ho & Hsp & _). destruct (Hbin o Ho) as (_ & _ & Hns).
  rewrite Hsp in Hns. congruence.
Qed.

Lemma special_no_postfix s : special s = true -> postfix_of s = None.
Proof.
  intros Hs. destruct (postfix_of s) as [o|] eqn:Hp; [|reflexivity].
  destruct (Hpostfix_inv _ _ Hp) as (Hn & _). congruence.
Qed.

Lemma infix_go_spec s m :
  match infix_go s m with
  | Some c => 1 <= c <= m /\ exists o, bop o = true /\ bsp o = s /\ c = blv o
  | None => forall c, 1 <= c <= m -> bin_at (pN c) s = None
  end.
Proof.
  induction m as [|m IH]; cbn [infix_go]; [intros c Hc; lia|].
  destruct (bin_at (pN (S m)) s) as [o|] eqn:Hb.
  - destruct (Hbin_inv _ _ _ Hb) as (Ho & Hsp & Hn). apply pN_inj in Hn. split; [lia | exists o; auto].
  - destruct (infix_go s m) as [c|].
    + destruct IH as [Hc Ho]. split; [lia | exact Ho].
    + intros c Hc. destruct (Nat.eq_dec c (S m)) as [->|]; [exact Hb | apply IH; lia].
Qed.

Lemma infix_lv_some s c o : bin_at (pN c) s = Some o -> 1 <= c <= 14 -> infix_lv s = Some c.
Proof.
  intros Hb Hc. pose proof (infix_go_spec s 14) as H. unfold infix_lv. destruct (infix_go s 14) as [c'|].
  - destruct H as (_ & o' & Ho' & Hsp' & ->). destruct (Hbin_inv _ _ _ Hb) as (Ho & Hsp & Hn). apply pN_inj in Hn.
    subst c. f_equal. apply Hbin_level; congruence.
  - rewrite (H c Hc) in Hb. discriminate.
Qed.

Lemma infix_lv_none s : (forall n, bin_at n s = None) -> infix_lv s = None.
Proof.
  intros Hn. pose proof (infix_go_spec s 14) as H. unfold infix_lv. destruct (infix_go s 14) as [c|]; [|reflexivity].
  destruct H as (_ & o & Ho & Hsp & ->). destruct (Hbin o Ho) as (_ & Hb & _). rewrite Hsp, Hn in Hb. discriminate.
Qed.

Lemma trank_bin o : bop o = true -> trank (TSym (bsp o)) = blv o.
Proof.
  intros Ho. destruct (Hbin o Ho) as (Hr & Hb & _). unfold trank.
  rewrite (infix_lv_some _ _ _ Hb) by lia. reflexivity.
Qed.

Lemma trank_special s : special s = true ->
  trank (TSym s) = if existsb (String.eqb s) ["."; "["; "("]%string then 1 else if String.eqb s "?" then 13 else 0.
Proof.
  intros Hs. unfold trank. rewrite infix_lv_none by (intros n; apply special_no_bin; exact Hs).
  unfold postfix_start. rewrite (special_no_postfix s Hs). reflexivity.
Qed.

Lemma trank_postfix_start s : postfix_start s = true -> trank (TSym s) = 1.
Proof.
  intros H. pose proof H as H'. unfold postfix_start in H'. destruct (postfix_of s) as [o|] eqn:Hp.
  - destruct (Hpostfix_inv _ _ Hp) as (_ & Hn). unfold trank. rewrite infix_lv_none, H by exact Hn. reflexivity.
  - apply existsb_exists in H'. destruct H' as (x & [<-|[<-|[<-|[]]]] & E);
      apply String.eqb_eq in E; subst s; rewrite trank_special by reflexivity; reflexivity.
Qed.

Lemma stops_0 k : stops 0 k.
Proof. unfold stops. lia. Qed.

Lemma stops_le c c' k : stops c k -> c' <= c -> stops c' k.
Proof. unfold stops. lia. Qed.

Lemma stops_ok c k : stops c k -> ok c k.
Proof. intros H. apply (stops_le c); [exact H|]. destruct (Nat.eqb_spec c 13); lia. Qed.

Lemma ok_weaken c c' k : ok c k -> c' <= c -> ok c' k.
Proof. unfold ok. intros H L. apply (stops_le _ _ _ H). destruct (Nat.eqb_spec c 13), (Nat.eqb_spec c' 13); lia. Qed.

Lemma ok_below c c' k : ok c k -> c' < c -> stops c' k.
Proof. unfold ok. intros H L. apply (stops_le _ _ _ H). destruct (Nat.eqb_spec c 13); lia. Qed.

Lemma stops_closer c s k : existsb (String.eqb s) [")"; "]"; ":"]%string = true -> stops c (TSym s :: k).
Proof.
  intros H. left. cbn [hrank]. apply existsb_exists in H. destruct H as (x & [<-|[<-|[<-|[]]]] & E);
    apply String.eqb_eq in E; subst s; rewrite trank_special by reflexivity; reflexivity.
Qed.

Lemma stops_q c k : c <= 12 -> stops c (TSym "?" :: k).
Proof. intros H. right. cbn [hrank]. rewrite trank_special by reflexivity. cbn. lia. Qed.

Lemma stops_bin c o k : bop o = true -> c < blv o -> stops c (TSym (bsp o) :: k).
Proof. intros Ho H. right. cbn [hrank]. rewrite (trank_bin o Ho). exact H. Qed.

Lemma stops_comma k : stops 13 (TSym "," :: k).
Proof.
  unfold stops. cbn [hrank]. unfold trank. pose proof (infix_go_spec "," 14) as H. unfold infix_lv.
  destruct (infix_go "," 14) as [l|].
  - destruct H as (_ & o & Ho & Hsp & ->). apply (Hcomma o Ho) in Hsp. lia.
  - left. unfold postfix_start. rewrite Hpostfix_comma. reflexivity.
Qed.

Lemma gt_paren_tl t r : gt_paren (t :: r) = false -> gt_paren r = false.
Proof.
  cbn [gt_paren]. destruct t as [x|i x|a]; try (intros H; exact H).
  destruct r as [|[y|j y|b] r']; try (intros H; exact H).
  intros H. apply orb_false_iff in H. exact (proj2 H).
Qed.

Lemma gt_paren_app a b : gt_paren (a ++ b) = false -> gt_paren b = false.
Proof. induction a as [|t a IH]; cbn [app]; intros H; [exact H|]. apply IH. exact (gt_paren_tl _ _ H). Qed.

(* `gt_paren ts = false` passes to suffixes: drop tokens and segments from the front of H's text until the goal's is
   left *)
Ltac gt_suffix H := first [exact H | gt_suffix (gt_paren_tl _ _ H) | gt_suffix (gt_paren_app _ _ H)].

Lemma str_eqb_refl s : String.eqb s s = true.
Proof. apply String.eqb_refl. Qed.

Definition opfn (c : nat) : string -> option string := bin_at (pN c).

Lemma rights_stop c fn n e k : 1 <= c <= 14 -> stops c k -> rights (opfn c) fn (S n) e k = Ok e k.
Proof.
  intros Hc Hr. cbn [rights]. destruct k as [|[x|i x|s] r]; try reflexivity.
  unfold opfn. destruct (bin_at (pN c) s) as [o|] eqn:Hb; [|reflexivity].
  unfold stops in Hr. cbn [hrank] in Hr. unfold trank in Hr. rewrite (infix_lv_some _ _ _ Hb Hc) in Hr. lia.
Qed.

Lemma stops_no_assign s r : stops 13 (TSym s :: r) -> bin_at 14 s = None.
Proof.
  intros Hr. destruct (bin_at 14 s) as [o|] eqn:Hb; [|reflexivity].
  unfold stops in Hr. cbn [hrank] in Hr. unfold trank in Hr. rewrite (infix_lv_some s 13 o) in Hr by (try exact Hb; lia). lia.
Qed.

Lemma tail14_stop rec e k : stops 13 k -> tail14 bin_at rec e k = Ok e k.
Proof.
  intros Hr. unfold tail14. destruct k as [|[x|i x|s] r]; try reflexivity.
  destruct (String.eqb_spec s "?") as [->|]; [|rewrite (stops_no_assign s r Hr); reflexivity].
  unfold stops in Hr. cbn [hrank] in Hr. rewrite trank_special in Hr by reflexivity. cbn in Hr. lia.
Qed.

Lemma tail14_tern rec c a b r0 r1 k :
  rec r0 = Ok a (TSym ":" :: r1) -> rec r1 = Ok b k -> stops 13 k ->
  tail14 bin_at rec c (TSym "?" :: r0) = Ok (ETern c a b) k.
Proof.
  intros H0 H1 Hk. unfold tail14. change (String.eqb "?" "?") with true. cbv iota. rewrite H0.
  change (String.eqb ":" ":") with true. cbv iota. rewrite H1.
  destruct k as [|[x|i x|s] r]; try reflexivity. rewrite (stops_no_assign s r Hk). reflexivity.
Qed.

Lemma tail14_assign rec o a b r0 k :
  bop o = true -> blv o = 13 -> rec r0 = Ok b k -> tail14 bin_at rec a (TSym (bsp o) :: r0) = Ok (EBin o a b) k.
Proof.
  intros Ho E13 Hb. destruct (Hbin o Ho) as (_ & Hat & Hs). rewrite E13 in Hat. unfold tail14.
  destruct (String.eqb_spec (bsp o) "?") as [E|_]; [rewrite E in Hs; discriminate|].
  change (bin_at 14 (bsp o)) with (bin_at (pN 13) (bsp o)). rewrite Hat, Hb. reflexivity.
Qed.

(* a text that expr_p2 hands to expr_p1: no prefix operator and no cast in front *)
Definition plain (ts : list tok) : Prop :=
  match ts with
  | TId _ :: _ | TLit _ _ :: _ => True
  | TSym s :: r => s = "("%string /\ match r with TId t :: _ => G t = false | [] => False | _ => True end
  | [] => False
  end.

(* a text that begins an operand: behind a call's `(` it is an argument, behind any `(` no cast type *)
Definition goodhd (ts : list tok) : Prop :=
  match ts with
  | TId t :: _ => G t = false
  | TLit _ _ :: _ => True
  | TSym s :: _ => s <> ")"%string
  | [] => False
  end.

(* the member operand parenthesised whatever its level: an untyped integer literal, `(1).m` *)
Lemma lit_cases (a : expr) :
  (exists x, a = ELit true x) \/ forall (A : Type) (u v : A), match a with ELit true _ => u | _ => v end = v.
Proof. destruct a as [x|[|] x|o a|o a b|c a b|a i|a m|f l|t a]; try (right; reflexivity). left. exists x. reflexivity. Qed.

Lemma goodhd_app a b : goodhd a -> goodhd (a ++ b).
Proof. destruct a as [|[x|i x|s] r]; cbn; intros H; try exact H. destruct H. Qed.

Lemma wrap_app c a r k : wrap c a r ++ k = if Nat.leb (el a) c then r ++ k else sy "(" :: r ++ sy ")" :: k.
Proof. unfold wrap. destruct (Nat.leb (el a) c); [reflexivity|]. cbn [app]. rewrite <- app_assoc. reflexivity. Qed.

Lemma goodhd_wrap c a r : goodhd r -> goodhd (wrap c a r).
Proof. unfold wrap. destruct (Nat.leb (el a) c); [auto|]. intros _. cbn. discriminate. Qed.

Lemma goodhd_raw e : wf e -> goodhd (raw e).
Proof.
  induction e as [x|i x|o a IH|o a IHa b IHb|c IHc a IHa b IHb|a IHa i IHi|a IHa m|fn IHf args|t a IH]; cbn [wf raw]; intros H.
  - exact H.
  - exact Logic.I.
  - destruct H as [Ho Ha]. destruct (upost o).
    + apply goodhd_app, goodhd_wrap, IH, Ha.
    + cbn. intros E. pose proof (Huop_special o Ho) as Hs. rewrite E in Hs. discriminate.
  - destruct H as (Ho & Ha & Hb). apply goodhd_app, goodhd_wrap, IHa, Ha.
  - destruct H as (Hc & Ha & Hb). apply goodhd_app, goodhd_wrap, IHc, Hc.
  - destruct H as (Ha & Hi). apply goodhd_app, goodhd_wrap, IHa, Ha.
  - apply goodhd_app. destruct (lit_cases a) as [[x ->]|E]; [cbn; discriminate|]. rewrite E. apply goodhd_wrap, IHa, H.
  - destruct H as (Hf & _). apply goodhd_app, goodhd_wrap, IHf, Hf.
  - cbn. discriminate.
Qed.

Lemma goodhd_pr c e : wf e -> goodhd (pr c e).
Proof. intros H. apply goodhd_wrap, goodhd_raw, H. Qed.

Lemma plain_app a b : plain a -> plain (a ++ b).
Proof.
  destruct a as [|[x|i x|s] r]; cbn; intros H; try exact H; [destruct H|]. destruct H as [-> H]. split; [reflexivity|].
  destruct r as [|[t|j t|c] r']; cbn; auto. destruct H.
Qed.

Lemma plain_paren r k : goodhd r -> plain (sy "(" :: r ++ k).
Proof.
  intros H. cbn. split; [reflexivity|]. destruct r as [|[t|j t|c] r']; cbn in *; auto. destruct H.
Qed.

Lemma plain_wrap c a k : c <= 1 -> wf a -> (el a <= 1 -> plain (raw a)) -> plain (wrap c a (raw a) ++ k).
Proof.
  intros Hc Hw Hp. rewrite wrap_app. destruct (Nat.leb_spec (el a) c); [apply plain_app, Hp; lia|].
  apply plain_paren, goodhd_raw, Hw.
Qed.

Lemma plain_raw e : wf e -> el e <= 1 -> plain (raw e).
Proof.
  induction e as [x|i x|o a IH|o a IHa b IHb|c IHc a IHa b IHb|a IHa i IHi|a IHa m|fn IHf args|t a IH]; cbn [wf raw el]; intros H Hl.
  - exact Logic.I.
  - exact Logic.I.
  - destruct H as [Ho Ha]. destruct (upost o); [|lia]. apply (plain_wrap 1); [lia | exact Ha | apply IH, Ha].
  - destruct H as (Ho & _). destruct (Hbin o Ho) as (Hr & _). lia.
  - lia.
  - destruct H as (Ha & Hi). apply (plain_wrap 1); [lia | exact Ha | apply IHa, Ha].
  - destruct (lit_cases a) as [[x ->]|E]; [cbn; split; [reflexivity | exact Logic.I]|].
    rewrite E. apply (plain_wrap 1); [lia | exact H | apply IHa, H].
  - destruct H as (Hf & _). apply (plain_wrap 1); [lia | exact Hf | apply IHf, Hf].
  - lia.
Qed.

Lemma call_args_first A ts : goodhd ts -> call_args A ts = first_arg A ts.
Proof.
  destruct ts as [|[x|i x|s] r]; cbn [goodhd call_args]; intros H; try reflexivity.
  destruct (String.eqb_spec s ")"); [contradiction | reflexivity].
Qed.

Lemma more_args_comma A n a r r' l k :
  A r = Ok a r' -> more_args A n r' = AOk l k -> more_args A (S n) (TSym "," :: r) = AOk (a :: l) k.
Proof. intros Ha Hl. cbn [more_args]. rewrite Ha, Hl. reflexivity. Qed.

Fixpoint dep (e : expr) : nat :=
  let d := fun (c : nat) (a : expr) => if Nat.leb (el a) c then dep a else S (dep a) in
  match e with
  | EId _ | ELit _ _ => 0
  | EUn o a => if upost o then d 1 a else d 2 a
  | EBin o a b => Nat.max (d (lctx o) a) (d (rctx o) b)
  | ETern c a b => Nat.max (d 12 c) (Nat.max (d 13 a) (d 13 b))
  | ESub a i => Nat.max (d 1 a) (S (d 1 i))
  | EMem a m => match a with ELit true _ => 1 | _ => d 1 a end
  | ECall f args => Nat.max (d 1 f) (S (fold_right (fun a m => Nat.max (d 13 a) m) 0 args))
  | ECast t a => d 2 a
  end.

Definition depc (c : nat) (e : expr) : nat := if Nat.leb (el e) c then dep e else S (dep e).

Lemma depc_eq c e : depc c e = if Nat.leb (el e) c then dep e else S (dep e).
Proof. reflexivity. Qed.

Lemma expr_ind' (P : expr -> Prop) :
  (forall x, P (EId x)) -> (forall i x, P (ELit i x)) ->
  (forall o a, P a -> P (EUn o a)) -> (forall o a b, P a -> P b -> P (EBin o a b)) ->
  (forall c a b, P c -> P a -> P b -> P (ETern c a b)) -> (forall a i, P a -> P i -> P (ESub a i)) ->
  (forall a m, P a -> P (EMem a m)) -> (forall f args, P f -> Forall P args -> P (ECall f args)) ->
  (forall t a, P a -> P (ECast t a)) -> forall e, P e.
Proof.
  intros H1 H2 H3 H4 H5 H6 H7 H8 H9.
  fix IH 1. intros [x|i x|o a|o a b|c a b|a i|a m|f args|t a].
  - apply H1.
  - apply H2.
  - apply H3, IH.
  - apply H4; apply IH.
  - apply H5; apply IH.
  - apply H6; apply IH.
  - apply H7, IH.
  - apply H8; [apply IH|]. induction args as [|x r IHr]; constructor; [apply IH | exact IHr].
  - apply H9, IH.
Qed.

Lemma wf_call f args : wf (ECall f args) <-> wf f /\ Forall wf args.
Proof.
  cbn [wf]. apply and_iff_compat_l. induction args as [|x r IH]; [split; constructor|].
  rewrite Forall_cons_iff, <- IH. reflexivity.
Qed.

Lemma el_le e : wf e -> el e <= 14.
Proof.
  destruct e; cbn [el wf]; intros H; try lia.
  - destruct (upost o); lia.
  - destruct H as (Ho & _). destruct (Hbin o Ho) as (Hr & _). lia.
Qed.

Lemma pr_app c e k : pr c e ++ k = wrap c e (raw e) ++ k.
Proof. reflexivity. Qed.

Lemma pr_top e : wf e -> pr 14 e = raw e.
Proof. intros Hw. unfold pr, wrap. pose proof (el_le e Hw). destruct (Nat.leb_spec (el e) 14); [reflexivity | lia]. Qed.

Definition sep (l : list expr) : list tok := flat_map (fun a => TSym "," :: wrap 13 a (raw a)) l.

Lemma commas_cons a rest :
  commas (map (fun a => wrap 13 a (raw a)) (a :: rest)) = wrap 13 a (raw a) ++ sep rest.
Proof.
  revert a. induction rest as [|b r IH]; intros a.
  - cbn. rewrite app_nil_r. reflexivity.
  - change (map (fun a0 => wrap 13 a0 (raw a0)) (a :: b :: r))
      with (wrap 13 a (raw a) :: map (fun a0 => wrap 13 a0 (raw a0)) (b :: r)).
    cbn [commas]. rewrite IH. reflexivity.
Qed.

Lemma stops_sep rest k : stops 13 (sep rest ++ TSym ")" :: k).
Proof. destruct rest as [|a r]; [apply stops_closer; reflexivity | apply stops_comma]. Qed.

(* side conditions on lengths of texts: `length` through `++` and `::`, then arithmetic *)
(* hypothesis by hypothesis: `in *` would try every hypothesis of the sections at every round *)
Ltac len :=
  repeat match goal with
  | H : context [List.length (_ ++ _)] |- _ => rewrite app_length in H
  | H : context [List.length (_ :: _)] |- _ => progress cbn [List.length] in H
  end;
  repeat first [rewrite app_length | progress cbn [List.length]]; lia.

(* the texts in the form a ++ t :: b ++ ... *)
Ltac flat :=
  repeat match goal with
  | H : context [(_ ++ _) ++ _] |- _ => rewrite <- app_assoc in H
  | H : context [(_ :: _) ++ _] |- _ => progress cbn [app] in H
  end;
  repeat first [rewrite <- app_assoc | progress cbn [app]].

(* The level parsers enter as variables satisfying the unfolding equations of `Ylev` and `Y`: against the model
   itself, conversion at a numeral level unfolds every level below it (three recursive calls each).  `parse_print`
   puts the model in. *)
Section Levels.
Variable E' A' : nat -> list tok -> res.        (* expr_p15 at nesting fuel f, with / without top-level commas *)
(* Q f c: the parser of the positions of level c (2 = expr_p2, 3..12, 13 = expr_p14, 14 = expr_p15), one nesting
   level above E' f, A' f *)
Variable Q : nat -> nat -> list tok -> res.
Definition P1 (f : nat) := p1 postfix_of (E' f) (A' f).
Definition P2 (f : nat) := p2 G prefix_of postfix_of (E' f) (A' f).
Definition POST (f : nat) := post postfix_of (A' f).
Definition P14 (f : nat) := p14 bin_at (Q f 12).
Hypothesis E'_S : forall f, E' (S f) = Q f 14.
Hypothesis A'_S : forall f, A' (S f) = Q f 13.
Hypothesis Q_2 : forall f ts, Q f 2 ts = P2 f (S (List.length ts)) ts.
Hypothesis Q_13 : forall f ts, Q f 13 ts = P14 f (S (List.length ts)) ts.
Hypothesis Q_level : forall f c ts, 3 <= c <= 12 \/ c = 14 -> Q f c ts = level (opfn c) (Q f (Nat.pred c)) ts.

Definition PY (f c n : nat) (ts : list tok) : res :=
  match c with
  | 0 => leaf (E' f) ts
  | 1 => P1 f ts
  | 2 => P2 f n ts
  | 13 => P14 f n ts
  | _ => Q f c ts
  end.

Lemma PY_Q f c n ts : 3 <= c <= 12 \/ c = 14 -> PY f c n ts = Q f c ts.
Proof.
  intros H. do 15 (destruct c as [|c]; [first [reflexivity | exfalso; lia]|]). exfalso. lia.
Qed.

Lemma Q_PY f c ts : 2 <= c <= 14 -> Q f c ts = PY f c (S (List.length ts)) ts.
Proof.
  intros H. destruct (Nat.eq_dec c 2) as [->|N2]; [apply Q_2|]. destruct (Nat.eq_dec c 13) as [->|N13]; [apply Q_13|].
  symmetry. apply PY_Q. lia.
Qed.

Lemma E'_PY f ts : E' (S f) ts = PY f 14 (S (List.length ts)) ts.
Proof. rewrite E'_S. reflexivity. Qed.

Lemma A'_PY f ts : A' (S f) ts = PY f 13 (S (List.length ts)) ts.
Proof. rewrite A'_S. apply Q_13. Qed.

(* what the parser does after reading an operand e in a position of level c: the postfix loop, the loop of a
   left-associative level, nothing *)
Definition cont (c f : nat) (e : expr) (k : list tok) (r : res) : Prop :=
  match c with
  | 1 => forall n, List.length k < n -> POST f n e k = r
  | 0 | 2 | 13 => r = Ok e k
  | _ => forall n, List.length k < n -> rights (opfn c) (Q f (Nat.pred c)) n e k = r
  end.

Lemma cont_bin c f e k r :
  3 <= c <= 12 \/ c = 14 ->
  cont c f e k r = (forall n, List.length k < n -> rights (opfn c) (Q f (Nat.pred c)) n e k = r).
Proof.
  intros H. do 15 (destruct c as [|c]; [first [reflexivity | exfalso; lia]|]). exfalso. lia.
Qed.

Lemma cont_postfix f s o e k r : postfix_of s = Some o -> cont 1 f (EUn o e) k r -> cont 1 f e (TSym s :: k) r.
Proof.
  intros Hp H [|n] Hn; [inversion Hn|]. unfold POST. cbn [post]. rewrite Hp. apply H. cbn [List.length] in Hn. lia.
Qed.

Lemma cont_dot f e m k r : cont 1 f (EMem e m) k r -> cont 1 f e (TSym "." :: TId m :: k) r.
Proof.
  intros H [|n] Hn; [inversion Hn|]. unfold POST. cbn [post]. rewrite (special_no_postfix ".") by reflexivity.
  apply H. cbn [List.length] in Hn. lia.
Qed.

Lemma cont_sub f e i r0 k r :
  A' f r0 = Ok i (TSym "]" :: k) -> List.length k <= List.length r0 ->
  cont 1 f (ESub e i) k r -> cont 1 f e (TSym "[" :: r0) r.
Proof.
  intros Hi Hl H [|n] Hn; [inversion Hn|]. unfold POST. cbn [post]. rewrite (special_no_postfix "[") by reflexivity.
  rewrite Hi. apply H. cbn [List.length] in Hn. lia.
Qed.

Lemma cont_call f e l r0 k r :
  call_args (A' f) r0 = AOk l k -> List.length k <= List.length r0 ->
  cont 1 f (ECall e l) k r -> cont 1 f e (TSym "(" :: r0) r.
Proof.
  intros Hl Hlen H [|n] Hn; [inversion Hn|]. unfold POST. cbn [post]. rewrite (special_no_postfix "(") by reflexivity.
  rewrite Hl. apply H. cbn [List.length] in Hn. lia.
Qed.

Lemma cont_rights c f s o e b r0 k r :
  3 <= c <= 12 \/ c = 14 -> opfn c s = Some o ->
  PY f (Nat.pred c) (S (List.length r0)) r0 = Ok b k -> List.length k <= List.length r0 ->
  cont c f (EBin o e b) k r -> cont c f e (TSym s :: r0) r.
Proof.
  intros Hc Ho Hb Hl. rewrite !cont_bin by exact Hc. intros H [|n] Hn; [inversion Hn|].
  cbn [rights]. rewrite Ho, Q_PY, Hb by lia. apply H. cbn [List.length] in Hn. lia.
Qed.

Lemma PY1 f n ts : PY f 1 n ts = match PY f 0 n ts with Ok e r => POST f (S (List.length r)) e r | x => x end.
Proof. reflexivity. Qed.

Lemma PY2_prefix f n s o r :
  prefix_of s = Some o -> PY f 2 (S n) (TSym s :: r) = match PY f 2 n r with Ok e r' => Ok (EUn o e) r' | x => x end.
Proof. intros H. cbn [PY]. unfold P2. cbn [p2]. rewrite H. reflexivity. Qed.

Lemma PY2_cast f n t r :
  G t = true ->
  PY f 2 (S n) (TSym "(" :: TId t :: TSym ")" :: r) = match PY f 2 n r with Ok e r' => Ok (ECast t e) r' | x => x end.
Proof. intros H. cbn [PY]. unfold P2. cbn [p2]. rewrite Hprefix_paren, H. reflexivity. Qed.

Lemma PY2_plain f n m ts : plain ts -> PY f 2 (S n) ts = PY f 1 m ts.
Proof.
  cbn [PY]. unfold P2, P1. cbn [p2]. destruct ts as [|[x|i x|s] r]; cbn [plain]; intros H; try reflexivity.
  destruct H as [-> H]. rewrite Hprefix_paren.
  destruct r as [|[t|i t|a] r']; try reflexivity.
  destruct r' as [|[y|j y|c] r2]; try reflexivity.
  rewrite H, andb_false_r. reflexivity.
Qed.

Lemma PY13_S f n m ts :
  PY f 13 (S n) ts = match PY f 12 m ts with Ok c r => tail14 bin_at (PY f 13 n) c r | x => x end.
Proof. reflexivity. Qed.

Lemma leaf_paren E e ts k : E (ts ++ TSym ")" :: k) = Ok e (TSym ")" :: k) -> leaf E (TSym "(" :: ts ++ TSym ")" :: k) = Ok e k.
Proof. intros H. cbn [leaf]. rewrite H. reflexivity. Qed.

Lemma post_stop f n e k : stops 1 k -> gt_paren k = false -> POST f (S n) e k = Ok e k.
Proof.
  intros Hr Hg. unfold POST. cbn [post]. destruct k as [|[x|i x|s] r]; try reflexivity.
  assert (Hs : postfix_start s = false).
  { destruct (postfix_start s) eqn:E; [|reflexivity].
    unfold stops in Hr. cbn [hrank] in Hr. rewrite (trank_postfix_start s E) in Hr. lia. }
  unfold postfix_start in Hs. destruct (postfix_of s); [discriminate|]. cbn [existsb] in Hs.
  apply orb_false_elim in Hs as [-> Hs]. apply orb_false_elim in Hs as [-> Hs]. apply orb_false_elim in Hs as [-> _].
  destruct (String.eqb s "<"); [|reflexivity]. rewrite (gt_paren_tl _ _ Hg). reflexivity.
Qed.

Lemma cont_stop c f e k : c <= 14 -> stops c k -> gt_paren k = false -> cont c f e k (Ok e k).
Proof.
  intros Hc Hr Hg. destruct (Nat.eq_dec c 1) as [->|N1].
  { intros [|n] Hn; [inversion Hn|]. apply post_stop; assumption. }
  destruct (Nat.eq_dec c 0) as [->|N0]; [reflexivity|]. destruct (Nat.eq_dec c 2) as [->|N2]; [reflexivity|].
  destruct (Nat.eq_dec c 13) as [->|N13]; [reflexivity|].
  rewrite cont_bin by lia. intros [|n] Hn; [inversion Hn|]. apply rights_stop; [lia | exact Hr].
Qed.

Lemma step_up f j ts e k res :
  j < 14 ->
  (forall n, List.length ts < n -> PY f j n ts = Ok e k) ->
  List.length k <= List.length ts ->
  (j = 1 -> plain ts) ->
  ok (S j) k ->
  cont (S j) f e k res ->
  forall n, List.length ts < n -> PY f (S j) n ts = res.
Proof.
  intros Hj Hi Hlen Hplain Hok Hc n Hn.
  destruct (Nat.eq_dec j 0) as [->|N0].
  { rewrite PY1, Hi by exact Hn. apply Hc. lia. }
  destruct n; [lia|].
  destruct (Nat.eq_dec j 1) as [->|N1].
  { rewrite (PY2_plain f n (S n)), Hc by auto. apply Hi, Hn. }
  destruct (Nat.eq_dec j 12) as [->|N12].
  { rewrite (PY13_S f n (S n)), Hi, Hc by lia. apply tail14_stop. exact Hok. }
  rewrite PY_Q, Q_level by lia. unfold level. cbn [Nat.pred]. rewrite Q_PY, Hi by lia.
  rewrite cont_bin in Hc by lia. apply Hc. lia.
Qed.

(* a text that level i reads as e, leaving k, is read the same way by every level c above it that k may follow *)
Lemma from_level f i ts e k :
  (forall res, cont i f e k res -> forall n, List.length ts < n -> PY f i n ts = res) ->
  List.length k <= List.length ts -> gt_paren k = false -> (i <= 1 -> plain ts) ->
  forall c, i <= c -> c <= 14 -> forall res, ok c k -> cont c f e k res ->
  forall n, List.length ts < n -> PY f c n ts = res.
Proof.
  intros Hi Hlen Hg Hplain c Hic. induction Hic as [|c Hic IH]; intros Hc res Hok Hcont; [apply Hi, Hcont|].
  apply (step_up f c ts e k); try assumption; try lia.
  - apply IH; [lia | apply (ok_weaken _ _ _ Hok); lia | apply cont_stop; [lia | apply (ok_below _ _ _ Hok); lia | exact Hg]].
  - intros ->. apply Hplain. lia.
Qed.

Definition claim (e : expr) : Prop :=
  forall f c k res, c <= 14 -> List.length (pr c e ++ k) <= f -> ok c k -> gt_paren (pr c e ++ k) = false ->
    cont c f e k res -> forall n, List.length (pr c e ++ k) < n -> PY f c n (pr c e ++ k) = res.

(* the claim at the node's own level, for the text without parentheses *)
Definition own (e : expr) : Prop :=
  forall f k res, List.length (raw e ++ k) <= f -> ok (el e) k -> gt_paren (raw e ++ k) = false ->
    cont (el e) f e k res -> forall n, List.length (raw e ++ k) < n -> PY f (el e) n (raw e ++ k) = res.

(* between parentheses the grammar starts again, one nesting level down *)
Lemma paren_leaf e f k n :
  wf e -> own e -> List.length (raw e ++ TSym ")" :: k) <= f -> gt_paren (raw e ++ TSym ")" :: k) = false ->
  PY (S f) 0 n (TSym "(" :: raw e ++ TSym ")" :: k) = Ok e k.
Proof.
  intros Hw Hraw Hf Hg. pose proof (el_le e Hw) as Hel. assert (Hs : stops 14 (TSym ")" :: k)) by (apply stops_closer; reflexivity).
  cbn [PY]. apply leaf_paren. rewrite E'_PY.
  apply (from_level f (el e) _ e (TSym ")" :: k)); try lia.
  - intros res Hc. apply Hraw; try assumption. apply stops_ok, (stops_le 14); [exact Hs | lia].
  - len.
  - gt_suffix Hg.
  - intros H1. apply plain_app, plain_raw; assumption.
  - apply stops_ok, Hs.
  - apply cont_stop; [lia | exact Hs | gt_suffix Hg].
Qed.

Lemma paren_case e : wf e -> own e -> claim e.
Proof.
  intros Hw Hraw f c k res Hc. pose proof (el_le e Hw) as Hel.
  unfold pr. rewrite wrap_app. destruct (Nat.leb_spec (el e) c) as [Hle|Hgt]; intros Hf Hok Hg Hcont.
  - apply (from_level f (el e) (raw e ++ k) e k); try assumption.
    + intros res' Hc'. apply Hraw; try assumption. apply (ok_weaken c); assumption.
    + len.
    + gt_suffix Hg.
    + intros H1. apply plain_app, plain_raw; assumption.
  - unfold sy in *. destruct f as [|f']; [len|].
    apply (from_level (S f') 0 (TSym "(" :: raw e ++ TSym ")" :: k) e k); try assumption; try lia.
    + intros res' -> n _. apply paren_leaf; [assumption.. | len | gt_suffix Hg].
    + len.
    + gt_suffix Hg.
    + intros _. apply plain_paren, goodhd_raw, Hw.
Qed.

Lemma use_claim a c f k res n :
  claim a -> c <= 14 -> List.length (wrap c a (raw a) ++ k) <= f -> ok c k -> gt_paren (wrap c a (raw a) ++ k) = false ->
  cont c f a k res -> List.length (wrap c a (raw a) ++ k) < n -> PY f c n (wrap c a (raw a) ++ k) = res.
Proof. intros H H1 H2 H3 H4 H5 H6. apply (H f c k res); assumption. Qed.

Lemma claim_stop a c f k n :
  claim a -> c <= 14 -> List.length (wrap c a (raw a) ++ k) <= f -> stops c k -> gt_paren (wrap c a (raw a) ++ k) = false ->
  List.length (wrap c a (raw a) ++ k) < n -> PY f c n (wrap c a (raw a) ++ k) = Ok a k.
Proof.
  intros H Hc Hf Hs Hg Hn. apply (H f c k); try assumption; [apply stops_ok, Hs | apply cont_stop; [assumption.. | gt_suffix Hg]].
Qed.

(* an operand of a position of level <= 1 or 13 under the comma-free grammar one nesting level down *)
Lemma nested13 a c f k :
  claim a -> wf a -> c <= 1 \/ c = 13 -> List.length (wrap c a (raw a) ++ k) <= f ->
  stops 13 k -> gt_paren (wrap c a (raw a) ++ k) = false ->
  A' (S f) (wrap c a (raw a) ++ k) = Ok a k.
Proof.
  intros IHa Hw Hc Hd Hs Hg. rewrite A'_PY.
  apply (from_level f c (wrap c a (raw a) ++ k) a k); try lia.
  - intros res Hcont n Hn. apply (use_claim a c f k res n IHa); try assumption; try lia.
    apply stops_ok, (stops_le 13); [exact Hs | lia].
  - len.
  - gt_suffix Hg.
  - intros H1. apply plain_wrap; [lia | exact Hw | apply plain_raw, Hw].
  - exact Hs.
  - reflexivity.
Qed.

Lemma own_lit i x : own (ELit i x).
Proof. intros f k res _ _ _ -> n _. reflexivity. Qed.

Lemma claim_id x : G x = false -> claim (EId x).
Proof. intros Hx. apply paren_case; [exact Hx|]. intros f k res _ _ _ -> n _. reflexivity. Qed.

Lemma claim_lit i x : claim (ELit i x).
Proof. apply paren_case; [exact Logic.I | apply own_lit]. Qed.

Lemma claim_un o a : wf (EUn o a) -> claim a -> claim (EUn o a).
Proof.
  intros Hw IHa. pose proof Hw as [Ho Ha]. apply paren_case; [exact Hw|].
  intros f k res Hd Hok Hg Hcont n Hn. cbn [el raw] in *. unfold sy in *. destruct (upost o) eqn:Hpo; flat.
  - apply (use_claim a 1 f (TSym (usp o) :: k) res n IHa); try assumption; try lia.
    + apply stops_0.
    + apply (cont_postfix f _ o), Hcont. apply Hpostfix; assumption.
  - destruct n; [lia|]. rewrite (PY2_prefix f n _ o) by (apply Hprefix; assumption).
    rewrite (use_claim a 2 f k (Ok a k) n IHa), Hcont; try assumption; try reflexivity; [lia | len | gt_suffix Hg | len].
Qed.

Lemma claim_cast t a : wf (ECast t a) -> claim a -> claim (ECast t a).
Proof.
  intros Hw IHa. pose proof Hw as [Ht Ha]. apply paren_case; [exact Hw|].
  intros f k res Hd Hok Hg Hcont n Hn. cbn [el raw app] in *. unfold sy in *.
  destruct n; [lia|]. rewrite PY2_cast by exact Ht.
  rewrite (use_claim a 2 f k (Ok a k) n IHa), Hcont; try assumption; try reflexivity; [lia | len | gt_suffix Hg | len].
Qed.

Lemma claim_bin o a b : wf (EBin o a b) -> claim a -> claim b -> claim (EBin o a b).
Proof.
  intros Hw IHa IHb. pose proof Hw as (Ho & Ha & Hb). apply paren_case; [exact Hw|].
  intros f k res Hd Hok Hg Hcont n Hn. cbn [el raw] in *. unfold sy in *. flat.
  destruct (Hbin o Ho) as (Hr & Hat & _).
  unfold lctx, rctx in *. destruct (Nat.eqb_spec (blv o) 13) as [E13|N13].
  - (* assignment: left side by expr_p12, operator and right side in the tail of expr_p14 *)
    rewrite E13 in *. destruct n; [lia|]. rewrite Hcont, (PY13_S f n (S n)).
    rewrite (claim_stop a 12 f (TSym (bsp o) :: wrap 13 b (raw b) ++ k) (S n) IHa); try assumption; try lia.
    + apply (tail14_assign _ o); try assumption. apply claim_stop; try assumption; [lia | len | gt_suffix Hg | len].
    + apply stops_bin; [exact Ho | lia].
  - (* left-associative level L: left side at L, operator and right side (one level below) in its loop *)
    set (L := blv o) in *.
    apply (use_claim a L f (TSym (bsp o) :: wrap (Nat.pred L) b (raw b) ++ k) res n IHa); try assumption; try lia.
    + unfold ok. destruct (Nat.eqb_spec L 13); [lia|]. apply stops_bin; [exact Ho | fold L; lia].
    + apply (cont_rights L f _ o _ b _ k); try assumption; [lia | | len].
      assert (Hs : stops (Nat.pred L) k) by (apply (ok_below L); [exact Hok | lia]).
      apply claim_stop; try assumption; [lia | len | gt_suffix Hg | lia].
Qed.

Lemma claim_tern c a b : wf (ETern c a b) -> claim c -> claim a -> claim b -> claim (ETern c a b).
Proof.
  intros Hw IHc IHa IHb. pose proof Hw as (Hc & Ha & Hb). apply paren_case; [exact Hw|].
  intros f k res Hd Hok Hg Hcont n Hn. cbn [el raw] in *. unfold sy in *. flat.
  destruct n; [lia|]. rewrite Hcont, (PY13_S f n (S n)).
  rewrite (claim_stop c 12 f _ (S n) IHc); try assumption; try lia; [|apply stops_q; lia].
  apply (tail14_tern _ c a b _ (wrap 13 b (raw b) ++ k) k); [| | exact Hok].
  - assert (Hs : stops 13 (TSym ":" :: wrap 13 b (raw b) ++ k)) by (apply stops_closer; reflexivity).
    apply claim_stop; try assumption; [lia | len | gt_suffix Hg | len].
  - apply claim_stop; try assumption; [lia | len | gt_suffix Hg | len].
Qed.

Lemma claim_sub a i : wf (ESub a i) -> claim a -> claim i -> claim (ESub a i).
Proof.
  intros Hw IHa IHi. pose proof Hw as (Ha & Hi). apply paren_case; [exact Hw|].
  intros f k res Hd Hok Hg Hcont n Hn. cbn [el raw] in *. unfold sy in *. flat.
  destruct f as [|f']; [len|].
  apply (use_claim a 1 (S f') (TSym "[" :: wrap 1 i (raw i) ++ TSym "]" :: k) res n IHa); try assumption; try lia.
  - apply stops_0.
  - apply (cont_sub _ _ i _ k); [| len | exact Hcont].
    apply (nested13 i 1 f' _ IHi Hi); [lia | len | apply stops_closer; reflexivity | gt_suffix Hg].
Qed.

Lemma claim_mem a m : wf (EMem a m) -> claim a -> claim (EMem a m).
Proof.
  intros Hw IHa. pose proof Hw as Ha. cbn [wf] in Ha. apply paren_case; [exact Hw|].
  intros f k res Hd Hok Hg Hcont n Hn. cbn [el raw] in *. unfold sy in *. apply cont_dot in Hcont.
  destruct (lit_cases a) as [[x ->]|E].
  - cbn [raw app] in *. destruct f as [|f']; [len|].
    pose proof (paren_leaf (ELit true x) f' (TSym "." :: TId m :: k) n Logic.I (own_lit true x)) as HL. cbn [raw app] in HL.
    rewrite PY1, HL; [apply Hcont; lia | len | gt_suffix Hg].
  - rewrite E in *. flat.
    apply (use_claim a 1 f (TSym "." :: TId m :: k) res n IHa); try assumption; try lia. apply stops_0.
Qed.

Lemma more_ok f k : forall rest,
  Forall claim rest -> Forall wf rest ->
  List.length (sep rest ++ TSym ")" :: k) <= f -> gt_paren (sep rest ++ TSym ")" :: k) = false ->
  forall n, List.length (sep rest ++ TSym ")" :: k) < n ->
  more_args (A' (S f)) n (sep rest ++ TSym ")" :: k) = AOk rest k.
Proof.
  induction rest as [|a r IH]; intros Hcl Hw Hd Hg [|n] Hn; try lia; [reflexivity|].
  inversion Hcl as [|? ? Ha Hr]; inversion Hw as [|? ? Hwa Hwr]; subst.
  cbn [sep flat_map] in *. fold (sep r) in *. flat.
  apply (more_args_comma _ _ _ _ (sep r ++ TSym ")" :: k)).
  - apply (nested13 a 13 f _ Ha Hwa); [lia | len | apply stops_sep | exact (gt_paren_tl _ _ Hg)].
  - apply IH; try assumption; [len | gt_suffix Hg | len].
Qed.

Lemma call_args_ok f k args :
  Forall claim args -> Forall wf args ->
  List.length (commas (map (fun a => wrap 13 a (raw a)) args) ++ TSym ")" :: k) <= f ->
  gt_paren (commas (map (fun a => wrap 13 a (raw a)) args) ++ TSym ")" :: k) = false ->
  call_args (A' (S f)) (commas (map (fun a => wrap 13 a (raw a)) args) ++ TSym ")" :: k) = AOk args k.
Proof.
  intros Hcl Hw Hd Hg. destruct args as [|a rest]; [reflexivity|].
  rewrite commas_cons in *. flat. inversion Hcl as [|? ? Ha Hr]; inversion Hw as [|? ? Hwa Hwr]; subst.
  rewrite call_args_first by (apply goodhd_app, goodhd_wrap, goodhd_raw, Hwa). unfold first_arg.
  rewrite (nested13 a 13 f (sep rest ++ TSym ")" :: k) Ha Hwa); [|lia | exact Hd | apply stops_sep | exact Hg].
  rewrite more_ok; try assumption; [reflexivity | len | gt_suffix Hg | lia].
Qed.

Lemma claim_call fn args : wf (ECall fn args) -> claim fn -> Forall claim args -> claim (ECall fn args).
Proof.
  intros Hw IHf IHargs. pose proof (proj1 (wf_call fn args) Hw) as [Hf Hargs]. apply paren_case; [exact Hw|].
  intros f k res Hd Hok Hg Hcont n Hn. cbn [el raw] in *. unfold sy in *. flat.
  destruct f as [|f']; [len|].
  apply (use_claim fn 1 (S f') (TSym "(" :: commas (map (fun a => wrap 13 a (raw a)) args) ++ TSym ")" :: k) res n IHf);
    try assumption; try lia.
  - apply stops_0.
  - apply (cont_call _ _ args _ k); [| len | exact Hcont].
    apply call_args_ok; try assumption; [len | gt_suffix Hg].
Qed.

Theorem claim_all : forall e, wf e -> claim e.
Proof.
  induction e as [x|i x|o a IHa|o a b IHa IHb|c a b IHc IHa IHb|a i IHa IHi|a m IHa|fn args IHf IHargs|t a IHa]
    using expr_ind'; intros Hw.
  - apply claim_id. exact Hw.
  - apply claim_lit.
  - apply claim_un; [exact Hw | apply IHa, Hw].
  - apply claim_bin; [exact Hw | apply IHa, Hw | apply IHb, Hw].
  - apply claim_tern; [exact Hw | apply IHc, Hw | apply IHa, Hw | apply IHb, Hw].
  - apply claim_sub; [exact Hw | apply IHa, Hw | apply IHi, Hw].
  - apply claim_mem; [exact Hw | apply IHa, Hw].
  - pose proof (proj1 (wf_call fn args) Hw) as [Hf Hargs].
    apply claim_call; [exact Hw | apply IHf, Hf |].
    rewrite Forall_forall in *. intros x Hx. apply IHargs; [exact Hx | apply Hargs, Hx].
  - apply claim_cast; [exact Hw | apply IHa, Hw].
Qed.

End Levels.

Lemma Y_S f l : Y G prefix_of postfix_of bin_at (S f) l = Ylev G prefix_of postfix_of bin_at (Y G prefix_of postfix_of bin_at f 12) (Y G prefix_of postfix_of bin_at f 11) l.
Proof. reflexivity. Qed.

Lemma Ylev_0 E A ts :
  Ylev G prefix_of postfix_of bin_at E A 0 ts = p2 G prefix_of postfix_of E A (S (List.length ts)) ts.
Proof. reflexivity. Qed.
Lemma Ylev_S E A l ts :
  Ylev G prefix_of postfix_of bin_at E A (S l) ts =
  if Nat.leb (S l) 10 then level (bin_at (S l + 2)) (Ylev G prefix_of postfix_of bin_at E A l) ts
  else if Nat.eqb (S l) 11 then p14 bin_at (Ylev G prefix_of postfix_of bin_at E A l) (S (List.length ts)) ts
  else level (bin_at 15) (Ylev G prefix_of postfix_of bin_at E A l) ts.
Proof. reflexivity. Qed.

Theorem parse_print e :
  wf e -> gt_paren (raw e) = false ->
  parse_top G prefix_of postfix_of bin_at (raw e) = Ok e [].
Proof.
  intros Hw Hg. unfold parse_top.
  pose (E := fun f => Y G prefix_of postfix_of bin_at f 12). pose (A := fun f => Y G prefix_of postfix_of bin_at f 11).
  (* the position of level c is the level c - 2 of `Ylev` *)
  pose (Q := fun f c => Ylev G prefix_of postfix_of bin_at (E f) (A f) (Nat.pred (Nat.pred c))).
  assert (HE : forall f, E (S f) = Q f 14) by (intros f; apply Y_S).
  assert (HA : forall f, A (S f) = Q f 13) by (intros f; apply Y_S).
  assert (H2 : forall f ts, Q f 2 ts = P2 E A f (S (List.length ts)) ts) by (intros f ts; apply Ylev_0).
  assert (H13 : forall f ts, Q f 13 ts = P14 Q f (S (List.length ts)) ts).
  { intros f ts. unfold Q, P14. cbn [Nat.pred]. rewrite Ylev_S. reflexivity. }
  assert (HL : forall f c ts, 3 <= c <= 12 \/ c = 14 -> Q f c ts = level (opfn c) (Q f (Nat.pred c)) ts).
  { intros f c ts [H| ->]; unfold Q; [|cbn [Nat.pred]; rewrite Ylev_S; reflexivity].
    destruct c as [|[|[|l]]]; try lia. cbn [Nat.pred]. rewrite Ylev_S, Nat.add_comm. unfold opfn, pN.
    destruct (Nat.leb_spec (S l) 10), (Nat.leb_spec (S (S (S l))) 12); try lia. reflexivity. }
  change (E (S (List.length (raw e))) (raw e) = Ok e []). rewrite (E'_PY E A Q HE).
  pose proof (claim_stop E A Q e 14 (List.length (raw e)) [] (S (List.length (raw e))) (claim_all E A Q HE HA H2 H13 HL e Hw)) as HS.
  change (wrap 14 e (raw e)) with (pr 14 e) in HS. rewrite app_nil_r, (pr_top e Hw) in HS.
  apply HS; try lia; [left; reflexivity | exact Hg].
Qed.

End Proofs.
