(* #include, #pragma and unknown directives under conditional compilation: nothing inside a skipped group has any
   effect, the model is conservative over Cond.v, and an included file is its lines run in place. *)
From Coq Require Import List NArith Bool String.
From RV Require Import Cond CondIncl.
Import ListNotations.
Local Open Scope list_scope.

Lemma active_app a b : is_active (a ++ b) = is_active a && is_active b.
Proof. apply forallb_app. Qed.

Lemma inactive_app a b : is_active b = false -> is_active (a ++ b) = false.
Proof. intros H. rewrite active_app, H. apply andb_false_r. Qed.

Section Proofs.
Variable switch : cstate -> bool -> cstate.
Variable evalc : env -> list ctok -> bool + cerr.
Variable files : string -> option (list xline).

Notation xrun := (CondIncl.xrun switch evalc files).
Notation step := (Cond.step switch evalc).
Notation run := (Cond.run switch evalc).

(* the body of xrun's loop, the rest of the loop passed as k: in this form xrun_unfold holds by computation.
   xstep1 is one line on its own *)
Definition xstepk (d : nat) (self : string) (l : xline) (st : xstate) (k : xstate -> xstate + xerr) : xstate + xerr :=
  let skip := negb (is_active (p_stack (x_p st))) in
  match l with
  | XL l0 => match step (x_p st) l0 with inl p => k (mkX p (x_once st)) | inr e => inr (XE e) end
  | XInclude f =>
      if skip then k st
      else match files f with
           | None => inr XFailedToFindFile
           | Some body =>
               match d with
               | O => inr XIncludeDepthExceeded
               | S d' =>
                   match xrun d' f (if marked st f then [] else body) st with inl st' => k st' | inr e => inr e end
               end
           end
  | XPragmaOnce => if skip then k st else k (mkX (x_p st) (self :: x_once st))
  | XPragmaWarning => k st
  | XPragmaOther => if skip then k st else inr XUnknownPragma
  | XUnknown => if skip then k st else inr XUnknownCommand
  end.

Definition xstep1 (d : nat) (self : string) (l : xline) (st : xstate) : xstate + xerr := xstepk d self l st inl.

Lemma xstep1_XL d self l0 st :
  xstep1 d self (XL l0) st = match step (x_p st) l0 with inl p => inl (mkX p (x_once st)) | inr e => inr (XE e) end.
Proof. reflexivity. Qed.

Lemma xstep1_skipped d self l st :
  is_active (p_stack (x_p st)) = false -> (forall l0, l <> XL l0) -> xstep1 d self l st = inl st.
Proof.
  intros Hi Hl. destruct l as [l0| | | | |]; cbn [xstep1 xstepk]; rewrite ?Hi; try reflexivity. destruct (Hl l0 eq_refl).
Qed.

Lemma xstep1_include d self f st : is_active (p_stack (x_p st)) = true ->
  xstep1 d self (XInclude f) st =
  match files f, d with
  | None, _ => inr XFailedToFindFile
  | Some _, O => inr XIncludeDepthExceeded
  | Some body, S d' => xrun d' f (if marked st f then [] else body) st
  end.
Proof.
  intros Ha. cbn [xstep1 xstepk]. rewrite Ha. cbn [negb]. destruct (files f); [|reflexivity]. destruct d; [reflexivity|].
  destruct (xrun d f _ st); reflexivity.
Qed.

Lemma xrun_nil d self st : xrun d self [] st = inl st.
Proof. destruct d; reflexivity. Qed.

Lemma xrun_unfold d self l r st : xrun d self (l :: r) st = xstepk d self l st (xrun d self r).
Proof. destruct d; reflexivity. Qed.

Lemma xstepk_xstep1 d self l st k :
  xstepk d self l st k = match xstep1 d self l st with inl st' => k st' | inr e => inr e end.
Proof.
  unfold xstep1, xstepk. destruct l as [l0|f| | | |]; try (destruct (negb _); reflexivity).
  - destruct (step (x_p st) l0); reflexivity.
  - destruct (negb _); [reflexivity|]. destruct (files f); [|reflexivity]. destruct d; [reflexivity|].
    destruct (xrun d f _ st); reflexivity.
  - reflexivity.
Qed.

Lemma xrun_cons d self l r st :
  xrun d self (l :: r) st = match xstep1 d self l st with inl st' => xrun d self r st' | inr e => inr e end.
Proof. rewrite xrun_unfold. apply xstepk_xstep1. Qed.

Lemma xrun_single d self l st : xrun d self [l] st = xstep1 d self l st.
Proof. rewrite xrun_cons. destruct (xstep1 d self l st); [apply xrun_nil | reflexivity]. Qed.

Lemma xrun_app d self a b st :
  xrun d self (a ++ b) st = match xrun d self a st with inl st' => xrun d self b st' | inr e => inr e end.
Proof.
  revert st; induction a as [|l a IH]; intros st; cbn [app]; rewrite ?xrun_nil, ?xrun_cons; [reflexivity|].
  destruct (xstep1 d self l st); [apply IH | reflexivity].
Qed.

(* `extra` is what the group itself has pushed so far; below it the chain is inactive, so no line is performed, no
   condition is evaluated, and every conditional directive only reshapes `extra` *)
Lemma skipped_lines d self ls :
  forall (extra stk : list cstate) (e : env) (o : list otok) (once : list string),
    is_active stk = false -> xgroup (List.length extra) ls = true ->
    xrun d self ls (mkX (mkP (extra ++ stk) e o) once) = inl (mkX (mkP stk e o) once).
Proof.
  induction ls as [|l r IH]; intros extra stk e o once Hd Hg.
  - destruct extra; [|discriminate]. apply xrun_nil.
  - rewrite xrun_cons. pose proof (inactive_app extra stk Hd) as Hi.
    destruct l as [l0|f| | | |]; [rewrite xstep1_XL | rewrite xstep1_skipped by (exact Hi || discriminate) ..];
      try (apply IH; assumption).
    destruct l0; cbn [Cond.step x_p x_once p_stack p_env p_out]; rewrite ?Hi; cbn [negb];
      try (apply IH; assumption).
    (* left: LIf, LIfdef, LIfndef push; LElif, LElse, LEndif need a conditional opened inside the group *)
    1-3: apply (IH (DisabledInner :: extra)); assumption.
    all: destruct extra as [|top extra']; [discriminate Hg|]; cbn [app].
    + rewrite (inactive_app extra' stk Hd), andb_false_r. apply (IH (switch top false :: extra')); assumption.
    + apply (IH (switch top true :: extra')); assumption.
    + apply (IH extra'); assumption.
Qed.

Theorem skipped_group_has_no_effect d self body rest (stk : list cstate) (e : env) (o : list otok) (once : list string) :
  is_active stk = false -> xgroup 0 body = true ->
  xrun d self (body ++ rest) (mkX (mkP stk e o) once) = xrun d self rest (mkX (mkP stk e o) once).
Proof.
  intros Hd Hg.
  rewrite xrun_app, (skipped_lines d self body [] stk e o once Hd Hg : xrun d self body (mkX (mkP stk e o) once) = _).
  reflexivity.
Qed.

Theorem false_conditional_has_no_effect d self c body rest st :
  (is_active (p_stack (x_p st)) = true -> evalc (p_env (x_p st)) c = inl false) ->
  xgroup 0 body = true ->
  xrun d self (XL (LIf c) :: body ++ XL LEndif :: rest) st = xrun d self rest st.
Proof.
  intros Hc Hg. destruct st as [[stk e o] once]. cbn [x_p p_stack p_env] in Hc.
  rewrite xrun_cons, xstep1_XL. cbn [x_p x_once Cond.step p_stack p_env p_out].
  (* skipped or false, the #if pushes DisabledInner *)
  destruct (is_active stk); cbn [negb]; rewrite ?(Hc eq_refl).
  all: rewrite (skipped_group_has_no_effect d self body (XL LEndif :: rest) (DisabledInner :: stk) e o once eq_refl Hg).
  all: rewrite xrun_cons; reflexivity.
Qed.

Theorem skipped_region_erasable d self a body b st st1 :
  xrun d self a st = inl st1 -> is_active (p_stack (x_p st1)) = false -> xgroup 0 body = true ->
  xrun d self (a ++ body ++ b) st = xrun d self (a ++ b) st.
Proof.
  intros Ha Hd Hg. rewrite !(xrun_app d self a), Ha. destruct st1 as [[stk e o] once].
  apply (skipped_group_has_no_effect d self body b stk e o once Hd Hg).
Qed.

Theorem xrun_conservative d self ls st :
  xrun d self (map XL ls) st =
  match run (x_p st) ls with inl p => inl (mkX p (x_once st)) | inr e => inr (XE e) end.
Proof.
  revert st; induction ls as [|l r IH]; intros st; cbn [map Cond.run]; rewrite ?xrun_nil, ?xrun_cons.
  - destruct st; reflexivity.
  - rewrite xstep1_XL. destruct (step (x_p st) l) as [p|e]; [apply (IH (mkX p (x_once st))) | reflexivity].
Qed.

(* only #pragma once looks at the name of the file it stands in *)
Lemma xrun_self d s1 s2 ls st : no_once ls = true -> xrun d s1 ls st = xrun d s2 ls st.
Proof.
  revert st; induction ls as [|l r IH]; intros st Hn; rewrite ?xrun_nil, ?xrun_cons; [reflexivity|].
  cbn [no_once forallb] in Hn. apply andb_prop in Hn as [Hl Hr].
  replace (xstep1 d s2 l st) with (xstep1 d s1 l st) by (destruct l; try reflexivity; discriminate).
  destruct (xstep1 d s1 l st); [apply IH; exact Hr | reflexivity].
Qed.

(* only #include looks at the depth budget; the hypothesis is the induction hypothesis of xrun_deeper, empty at d = 0 *)
Lemma xstep1_deeper d self l st st1 :
  (forall d' f ls, d = S d' -> xrun d' f ls st = inl st1 -> xrun d f ls st = inl st1) ->
  xstep1 d self l st = inl st1 -> xstep1 (S d) self l st = inl st1.
Proof.
  intros IHd. destruct l as [l0|f| | | |]; try exact (fun H => H).
  destruct (is_active (p_stack (x_p st))) eqn:Ha;
    [|rewrite !xstep1_skipped by (exact Ha || discriminate); exact (fun H => H)].
  rewrite !(xstep1_include _ _ _ _ Ha). destruct (files f); [|discriminate].
  destruct d as [|d']; [discriminate | exact (IHd d' _ _ eq_refl)].
Qed.

Lemma xrun_deeper d : forall self ls st st', xrun d self ls st = inl st' -> xrun (S d) self ls st = inl st'.
Proof.
  induction d as [|d IHd]; intros self ls; induction ls as [|l r IH]; intros st st';
    rewrite ?xrun_nil, ?xrun_cons; auto.
  (* left: l :: r at depth 0 and at depth S d, differing in the hypothesis of xstep1_deeper only *)
  all: destruct (xstep1 _ self l st) as [st1|] eqn:E; [|discriminate]; intros H.
  all: rewrite (xstep1_deeper _ self l st st1); [apply IH; exact H | | exact E].
  - discriminate.
  - intros d' f ls [= <-]. apply IHd.
Qed.

Theorem include_is_paste_under_conditionals d self f body rest st st1 :
  files f = Some body -> marked st f = false -> no_once body = true ->
  is_active (p_stack (x_p st)) = true ->
  xrun d f body st = inl st1 ->
  xrun (S d) self (XInclude f :: rest) st = xrun (S d) self (body ++ rest) st.
Proof.
  intros Hf Hm Hn Ha Hb.
  rewrite xrun_cons, xrun_app, (xstep1_include _ _ _ _ Ha), Hf, Hm, Hb.
  rewrite (xrun_self (S d) self f body st Hn), (xrun_deeper d _ _ _ _ Hb). reflexivity.
Qed.

End Proofs.
