(* NameGenPerm.v — NameMap::build walks two hash maps (the scopes, and the names of one scope): the names it assigns
   do not depend on the order of either walk. *)
From Coq Require Import List NArith Bool String Ascii Lia Arith Permutation Sorting.Sorted OrderedTypeEx.
From RV Require Import Wire ListFacts NameGen NameGenProofs Perm PermProofs.
Import ListNotations.
Local Open Scope list_scope.

(* String.leb is transitive (total and antisymmetric: String.leb_total, String.leb_antisym) *)
Lemma string_leb_trans a b c : String.leb a b = true -> String.leb b c = true -> String.leb a c = true.
Proof.
  unfold String.leb.
  destruct (String.compare a b) eqn:E1; try discriminate; destruct (String.compare b c) eqn:E2; try discriminate; intros _ _.
  - apply String.compare_eq_iff in E1, E2. subst. replace (String.compare c c) with Eq; [reflexivity|]. symmetry. apply String_as_OT.cmp_eq. reflexivity.
  - apply String.compare_eq_iff in E1. subst. rewrite E2. reflexivity.
  - apply String.compare_eq_iff in E2. subst. rewrite E1. reflexivity.
  - apply String_as_OT.cmp_lt in E1, E2. replace (String.compare a c) with Lt; [reflexivity|].
    symmetry. apply String_as_OT.cmp_lt, (String_as_OT.lt_trans _ _ _ E1 E2).
Qed.

(* the names of one scope are keys of a hash map, hence distinct: sorting removes the order of the walk *)
Theorem sort_entries_order_irrelevant es es' :
  NoDup (map e_name es) -> Permutation es es' -> sort_entries es = sort_entries es'.
Proof.
  rewrite !sort_entries_isort.
  apply (sort_by_order_irrelevant e_name String.leb String.leb_total string_leb_trans String.leb_antisym).
Qed.

(* used-name sets: only membership and size matter *)
Definition same_names (u u' : list string) : Prop := List.length u = List.length u' /\ forall c, in_str c u = in_str c u'.

Lemma same_names_cons c u u' : same_names u u' -> same_names (c :: u) (c :: u').
Proof. intros [H1 H2]. split; [cbn; lia|]. intros d. unfold in_str in *. cbn [existsb]. rewrite H2. reflexivity. Qed.

Lemma in_str_perm c u u' : Permutation u u' -> in_str c u = in_str c u'.
Proof.
  intros Hp. apply eq_true_iff_eq. rewrite !in_str_In. split; apply Permutation_in; [|symmetry]; exact Hp.
Qed.

Lemma same_names_perm u u' : Permutation u u' -> same_names u u'.
Proof. intros Hp. split; [apply Permutation_length, Hp | intros c; apply in_str_perm, Hp]. Qed.

Section Scope.
Variable reserved : list string.

Lemma gen_syms_same_names name syms : forall u u' out u1 out1,
  same_names u u' -> gen_syms name syms u out = Some (u1, out1) ->
  exists u1', gen_syms name syms u' out = Some (u1', out1) /\ same_names u1 u1'.
Proof.
  induction syms as [|s r IH]; intros u u' out u1 out1 He H; cbn [gen_syms] in *.
  - inversion H; subst. exists u'. split; [reflexivity | exact He].
  - destruct He as [Hl Hm].
    rewrite <- Hl. rewrite <- (find_free_ext (fun c => negb (in_str c u)) (fun c => negb (in_str c u')))
      by (intros c; rewrite Hm; reflexivity).
    destruct (find_free _ name 0%N (S (List.length u))) as [c|]; [|discriminate].
    apply (IH (c :: u) (c :: u') _ _ _ (same_names_cons c u u' (conj Hl Hm)) H).
Qed.

Lemma gen_entries_same_names es : forall u u' out u1 out1,
  same_names u u' -> gen_entries reserved es u out = Some (u1, out1) ->
  exists u1', gen_entries reserved es u' out = Some (u1', out1) /\ same_names u1 u1'.
Proof.
  induction es as [|e r IH]; intros u u' out u1 out1 He H; cbn [gen_entries] in *.
  - inversion H; subst. exists u'. split; [reflexivity | exact He].
  - destruct (is_kept reserved e); [apply (IH _ _ _ _ _ He H)|].
    destruct (gen_syms (e_name e) (e_syms e) u out) as [[u2 out2]|] eqn:G; [|discriminate].
    destruct (gen_syms_same_names _ _ _ _ _ _ _ He G) as (u2' & G' & He2). rewrite G'.
    apply (IH _ _ _ _ _ He2 H).
Qed.

(* the walk over the names of one scope: the used set starts as a permutation of itself *)
Theorem assign_scope_order_irrelevant es es' k g :
  NoDup (map e_name es) -> Permutation es es' -> assign_scope reserved es = Some (k, g) ->
  exists k', assign_scope reserved es' = Some (k', g) /\ Permutation k k'.
Proof.
  intros Hnd Hp H. unfold assign_scope in *. rewrite <- (sort_entries_order_irrelevant es es' Hnd Hp).
  destruct (gen_entries reserved (sort_entries es) (kept_names reserved es ++ reserved) []) as [[u gen]|] eqn:G; [|discriminate].
  inversion H; subst k g.
  assert (He : same_names (kept_names reserved es ++ reserved) (kept_names reserved es' ++ reserved)).
  { apply same_names_perm, Permutation_app_tail, Permutation_map, filter_perm, Hp. }
  destruct (gen_entries_same_names _ _ _ _ _ _ He G) as (u' & -> & _).
  eexists. split; [reflexivity | apply Permutation_flat_map, Hp].
Qed.

Theorem assign_scopes_order_irrelevant scopes scopes' g gens :
  Permutation scopes scopes' -> assign_scopes reserved scopes = Some (g, gens) ->
  exists g' gens', assign_scopes reserved scopes' = Some (g', gens') /\ Permutation g g' /\ Permutation gens gens'.
Proof.
  intros Hp H. rewrite assign_scopes_flat in *. inversion H; subst g gens.
  eexists _, _. split; [reflexivity|]. split; apply Permutation_flat_map, Hp.
Qed.

Lemma assign_locals_same_names locals : forall all u u' out res,
  same_names u u' -> assign_locals locals all u out = Some res -> assign_locals locals all u' out = Some res.
Proof.
  induction locals as [|[id name] r IH]; intros all u u' out res He H; cbn [assign_locals] in *; [exact H|].
  destruct He as [Hl Hm]. rewrite <- Hm. destruct (in_str name u).
  - rewrite <- Hl.
    rewrite <- (find_free_ext (fun c => negb (in_str c all) && negb (in_str c u)) (fun c => negb (in_str c all) && negb (in_str c u')))
      by (intros c; rewrite Hm; reflexivity).
    destruct (find_free _ name 0%N _) as [c|]; [|discriminate].
    apply (IH all (c :: u) (c :: u') _ _ (same_names_cons c u u' (conj Hl Hm)) H).
  - apply (IH all u u' _ _ (conj Hl Hm) H).
Qed.

(* the whole build: the locals see the generated global names as a permutation of what they were *)
Theorem build_order_irrelevant scopes scopes' locals g ls :
  Permutation scopes scopes' -> build reserved scopes locals = Some (g, ls) ->
  exists g', build reserved scopes' locals = Some (g', ls) /\ Permutation g g'.
Proof.
  intros Hp H. unfold build in *.
  destruct (assign_scopes reserved scopes) as [[gl gens]|] eqn:E; [|discriminate].
  destruct (assign_scopes_order_irrelevant _ _ _ _ Hp E) as (g' & gens' & -> & P1 & P2).
  destruct (assign_locals locals (map snd locals) (gvar_names gl ++ gens ++ reserved) []) as [res|] eqn:L; [|discriminate].
  inversion H; subst g ls.
  assert (He : same_names (gvar_names gl ++ gens ++ reserved) (gvar_names g' ++ gens' ++ reserved)).
  { apply same_names_perm, Permutation_app; [apply Permutation_map, filter_perm, P1 | apply Permutation_app_tail, P2]. }
  rewrite (assign_locals_same_names locals _ _ _ [] res He L). exists g'. split; [reflexivity | exact P1].
Qed.

End Scope.
