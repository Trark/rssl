(* NameGenEquiv.v — renaming a scope's identifiers to other fresh identifiers renames the generated names and nothing else.
   Fresh: the names of the scope are pairwise distinct, none has the form m_k for a name m of the scope, no m_k is
   reserved.  For such a scope the generator has a closed form: a name that is unique and not reserved is kept, the
   i-th symbol of any other name n gets n_i.  The closed form asks of a spelling only whether it is reserved, so a
   renaming that keeps "reserved" as it was carries the result to that of the renamed scope.  The pass over the
   locals gets the same treatment (closed_locals). *)
From Coq Require Import List NArith Bool String Ascii Arith Lia Permutation DecimalString DecimalN.
From RV Require Import Wire NameGen NameGenProofs.
Import ListNotations.
Local Open Scope string_scope.

(* n_k determines n and k (cand_inj2): a decimal numeral holds no underscore, so the last underscore splits the name *)
Fixpoint has_us (s : string) : bool :=
  match s with EmptyString => false | String c r => Ascii.eqb c "_" || has_us r end.

Definition is_dig (c : ascii) : bool := (48 <=? N_of_ascii c)%N && (N_of_ascii c <=? 57)%N.
Fixpoint all_digits (s : string) : bool :=
  match s with EmptyString => true | String c r => is_dig c && all_digits r end.
Definition nonempty (s : string) : bool := match s with EmptyString => false | _ => true end.

Lemma uint_all_digits d : all_digits (DecimalString.NilEmpty.string_of_uint d) = true.
Proof. induction d; cbn [DecimalString.NilEmpty.string_of_uint all_digits]; try exact IHd; reflexivity. Qed.

Lemma show_N_digits k : all_digits (show_N k) = true /\ nonempty (show_N k) = true.
Proof.
  unfold show_N, NilZero.string_of_uint. destruct (N.to_uint k) eqn:E; cbn [DecimalString.NilEmpty.string_of_uint all_digits nonempty];
    try (split; [apply uint_all_digits|reflexivity]). split; reflexivity.
Qed.

Lemma show_N_no_us k : has_us (show_N k) = false.
Proof.
  destruct (show_N_digits k) as [D _]. induction (show_N k) as [|c s IH]; [reflexivity|].
  cbn [all_digits has_us] in *. apply andb_true_iff in D as [Dc Ds]. rewrite (IH Ds), orb_false_r.
  destruct (Ascii.eqb_spec c "_") as [->|]; [discriminate Dc | reflexivity].
Qed.

Lemma has_us_sep a b : has_us (a ++ String "_" b) = true.
Proof. induction a as [|c a IH]; cbn [append has_us]; [reflexivity | rewrite IH; apply orb_true_r]. Qed.

Lemma split_at_last_us : forall n m dk di, has_us dk = false -> has_us di = false ->
  n ++ "_" ++ dk = m ++ "_" ++ di -> n = m /\ dk = di.
Proof.
  induction n as [|c n IH]; intros [|c' m] dk di Hk Hi E; cbn [append] in E; inversion E; subst.
  - split; reflexivity.
  - rewrite has_us_sep in Hk. discriminate.
  - rewrite has_us_sep in Hi. discriminate.
  - destruct (IH m dk di Hk Hi) as [-> ->]; [assumption|]. split; reflexivity.
Qed.

Lemma cand_inj2 n m k i : cand n k = cand m i -> n = m /\ k = i.
Proof.
  unfold cand. intros E. destruct (split_at_last_us n m (show_N k) (show_N i) (show_N_no_us k) (show_N_no_us i) E) as [-> H].
  split; [reflexivity|apply show_N_inj; exact H].
Qed.

Lemma find_free_first free name : forall d k fuel,
  (forall j, (j < d)%nat -> free (cand name (k + N.of_nat j)) = false) ->
  free (cand name (k + N.of_nat d)) = true -> (d < fuel)%nat ->
  find_free free name k fuel = Some (cand name (k + N.of_nat d)).
Proof.
  intros d k fuel Hb Hf Hl. assert (Sp := find_free_spec free name fuel k).
  destruct (find_free free name k fuel) as [c|]; [|rewrite (Sp d Hl) in Hf; discriminate].
  destruct Sp as (d' & _ & -> & Hf' & Hb'). replace d' with d; [reflexivity|].
  destruct (Nat.lt_trichotomy d' d) as [H|[H|H]]; [|symmetry; exact H|].
  - rewrite (Hb d' H) in Hf'. discriminate.
  - rewrite (Hb' d H) in Hf. discriminate.
Qed.

(* the state the generator keeps for a name it has numbered: its candidates in l are exactly those below the counter j *)
Definition counted (l : list string) (name : string) (j : N) : Prop := forall k, In (cand name k) l <-> (k < j)%N.

Lemma counted_cons name l j : counted l name j -> counted (cand name j :: l) name (j + 1).
Proof.
  intros Hc k. cbn [In]. rewrite (Hc k). split.
  - intros [E|H]; [apply cand_inj in E; lia | lia].
  - intros H. destruct (N.eq_dec k j) as [->|Ne]; [left; reflexivity | right; lia].
Qed.

Lemma find_free_counted name (l : list string) fuel j : (List.length l < fuel)%nat -> counted l name j ->
  find_free (fun c => negb (in_str c l)) name 0 fuel = Some (cand name j).
Proof.
  intros Hf Hc. destruct (find_free_notin name l fuel Hf) as (i & -> & Hi & Hlt). rewrite (Hc i) in Hi.
  assert (~ (j < i)%N) by (intros H; apply Hlt, (Hc j) in H; lia). do 2 f_equal. lia.
Qed.

Section Equiv.
Variable reserved : list string.

Notation is_kept := (is_kept reserved).
Notation kept_names := (kept_names reserved).
Notation gen_entries := (gen_entries reserved).
Notation assign_scope := (assign_scope reserved).
Notation kept_assignments := (kept_assignments reserved).

Definition names (es : list entry) : list string := map e_name es.

Lemma in_names e es : In e es -> In (e_name e) (names es).
Proof. apply in_map. Qed.

Definition Fresh (es : list entry) : Prop :=
  NoDup (names es) /\
  (forall n m k, In n (names es) -> In m (names es) -> n <> cand m k) /\
  (forall m k, In m (names es) -> ~ In (cand m k) reserved).

Fixpoint number (name : string) (k : N) (syms : list sym) : list (sym * string) :=
  match syms with [] => [] | s :: r => (s, cand name k) :: number name (k + 1) r end.
Definition closed_entry (e : entry) : list (sym * string) :=
  if is_kept e then [] else number (e_name e) 0 (e_syms e).
Definition closed_gen (es : list entry) : list (sym * string) := flat_map closed_entry es.

Lemma closed_gen_cons e r :
  closed_gen (e :: r) = ((if is_kept e then [] else number (e_name e) 0 (e_syms e)) ++ closed_gen r)%list.
Proof. reflexivity. Qed.

Lemma gen_syms_closed n syms : forall j used out, counted used n j ->
  gen_syms n syms used out =
    Some ((rev (map snd (number n j syms)) ++ used)%list, (rev (number n j syms) ++ out)%list).
Proof.
  induction syms as [|s r IH]; intros j used out Hu; cbn [NameGen.gen_syms number map rev app]; [reflexivity|].
  rewrite (find_free_counted n used _ j (Nat.lt_succ_diag_r _) Hu).
  rewrite (IH (j + 1)%N (cand n j :: used) ((s, cand n j) :: out) (counted_cons n used j Hu)).
  rewrite <- !app_assoc. reflexivity.
Qed.

Lemma number_names n : forall syms j x, In x (map snd (number n j syms)) -> exists k, x = cand n k.
Proof.
  induction syms as [|s r IH]; intros j x H; cbn [number map In] in H; [contradiction|].
  destruct H as [<-|H]; [eexists; reflexivity|eapply IH; exact H].
Qed.

Lemma gen_entries_closed es : forall used out,
  NoDup (names es) ->
  (forall e k, In e es -> ~ In (cand (e_name e) k) used) ->
  gen_entries es used out =
    Some ((rev (map snd (closed_gen es)) ++ used)%list, (rev (closed_gen es) ++ out)%list).
Proof.
  induction es as [|e r IH]; intros used out Hnd Hc; [reflexivity|].
  rewrite closed_gen_cons. cbn [NameGen.gen_entries]. inversion Hnd as [|x l Hx Hr]; subst.
  destruct (is_kept e) eqn:K.
  - cbn [app]. apply IH; [exact Hr|]. intros e' k He'. apply Hc. right. exact He'.
  - rewrite (gen_syms_closed (e_name e) (e_syms e) 0%N used out).
    + rewrite IH; [|exact Hr|].
      * rewrite !map_app, !rev_app_distr, <- !app_assoc. reflexivity.
      * intros e' k He' Hin. apply in_app_iff in Hin as [Hin|Hin].
        -- apply in_rev in Hin. apply number_names in Hin as (i & E). apply cand_inj2 in E as [E _].
           apply Hx. rewrite <- E. apply in_names, He'.
        -- apply (Hc e' k (or_intror He') Hin).
    + intros k. split; [intros H; exfalso; apply (Hc e k (or_introl eq_refl) H)|lia].
Qed.

Theorem assign_scope_fresh es : Fresh es ->
  assign_scope es = Some (kept_assignments es, closed_gen (sort_entries es)).
Proof.
  intros (Hnd & Hform & Hres). unfold NameGen.assign_scope.
  assert (P := sort_entries_perm es).
  rewrite (gen_entries_closed (sort_entries es) (kept_names es ++ reserved)%list []).
  - rewrite app_nil_r, rev_involutive. reflexivity.
  - apply (Permutation_NoDup (l := names es)); [apply Permutation_map, Permutation_sym, P|exact Hnd].
  - intros e k He Hin. apply (Permutation_in _ P) in He.
    assert (Hn := in_names e es He).
    apply in_app_iff in Hin as [Hin|Hin].
    + unfold NameGen.kept_names in Hin. apply in_map_iff in Hin as (e' & E & He'). apply filter_In in He' as [He' _].
      apply (Hform (e_name e') (e_name e) k); [apply in_names, He'|exact Hn|exact E].
    + apply (Hres (e_name e) k Hn Hin).
Qed.

Definition ren_entry (f : string -> string) (e : entry) : entry := mkEntry (f (e_name e)) (e_syms e).
Definition ren (f : string -> string) (es : list entry) : list entry := map (ren_entry f) es.

(* what the closed form of the renamed scope is, written over the original scope *)
Definition ren_closed_entry (f : string -> string) (e : entry) : list (sym * string) :=
  if is_kept e then [] else number (f (e_name e)) 0 (e_syms e).
Definition ren_closed_gen (f : string -> string) (es : list entry) : list (sym * string) := flat_map (ren_closed_entry f) es.

Definition keeps_reserved (f : string -> string) (es : list entry) : Prop :=
  forall n, In n (names es) -> in_str (f n) reserved = in_str n reserved.

Lemma is_kept_ren f es e : keeps_reserved f es -> In e es -> is_kept (ren_entry f e) = is_kept e.
Proof.
  intros H He. unfold NameGen.is_kept, ren_entry. cbn [e_syms e_name].
  destruct (e_syms e) as [|s [|s' r]]; try reflexivity. rewrite (H (e_name e) (in_names e es He)). reflexivity.
Qed.

Lemma kept_assignments_ren f es : keeps_reserved f es ->
  kept_assignments (ren f es) = map (fun p => (fst p, f (snd p))) (kept_assignments es).
Proof.
  intros H. unfold NameGen.kept_assignments, ren. rewrite !flat_map_concat_map, concat_map, !map_map. f_equal.
  apply map_ext_in. intros e He. rewrite (is_kept_ren f es e H He). destruct (is_kept e); [|reflexivity].
  cbn [ren_entry e_syms e_name]. rewrite map_map. reflexivity.
Qed.

Lemma closed_gen_ren f es : keeps_reserved f es -> closed_gen (ren f es) = ren_closed_gen f es.
Proof.
  intros H. unfold closed_gen, ren_closed_gen, ren. rewrite !flat_map_concat_map, map_map. f_equal.
  apply map_ext_in. intros e He. unfold closed_entry, ren_closed_entry. rewrite (is_kept_ren f es e H He). reflexivity.
Qed.

Theorem rename_equivariant f es :
  Fresh es -> Fresh (ren f es) -> keeps_reserved f es ->
  exists G G',
    assign_scope es = Some (kept_assignments es, G) /\
    assign_scope (ren f es) = Some (map (fun p => (fst p, f (snd p))) (kept_assignments es), G') /\
    Permutation G (closed_gen es) /\ Permutation G' (ren_closed_gen f es).
Proof.
  intros F1 F2 Hk.
  exists (closed_gen (sort_entries es)), (closed_gen (sort_entries (ren f es))).
  split; [apply assign_scope_fresh; exact F1|].
  split; [rewrite (assign_scope_fresh (ren f es) F2), (kept_assignments_ren f es Hk); reflexivity|].
  split.
  - apply Permutation_flat_map, sort_entries_perm.
  - rewrite <- (closed_gen_ren f es Hk). apply Permutation_flat_map, sort_entries_perm.
Qed.

End Equiv.

(* s = a ++ "_" ++ d for some a and some non-empty string of digits d *)
Fixpoint gen_shaped (s : string) : bool :=
  match s with
  | EmptyString => false
  | String c r => (Ascii.eqb c "_" && nonempty r && all_digits r) || gen_shaped r
  end.

Lemma cand_gen_shaped m k : gen_shaped (cand m k) = true.
Proof.
  unfold cand. induction m as [|c m IH].
  - cbn [append gen_shaped]. destruct (show_N_digits k) as [D Ne]. rewrite D, Ne. reflexivity.
  - change (String c m ++ "_" ++ show_N k) with (String c (m ++ "_" ++ show_N k)). cbn [gen_shaped].
    rewrite IH. apply orb_true_r.
Qed.

Definition plain_names (l : list string) : bool := forallb (fun n => negb (gen_shaped n)) l.

Lemma plain_not_cand l n m k : plain_names l = true -> In n l -> n <> cand m k.
Proof.
  intros P Hn E. unfold plain_names in P. rewrite forallb_forall in P. specialize (P n Hn).
  rewrite E, cand_gen_shaped in P. discriminate.
Qed.

(* a computable test for freshness: no name and no reserved word looks like a generated name *)
Theorem fresh_intro reserved es :
  NoDup (names es) -> plain_names (names es) = true -> plain_names reserved = true -> Fresh reserved es.
Proof.
  intros Hnd Pn Pr. repeat split.
  - exact Hnd.
  - intros n m k Hn _. apply (plain_not_cand (names es)); assumption.
  - intros m k _ Hin. apply (plain_not_cand reserved (cand m k) m k Pr Hin). reflexivity.
Qed.

(* how many of the locals already named had this name and were renamed *)
Fixpoint occ (used0 : list string) (done : list (N * string)) (n : string) : N :=
  match done with
  | [] => 0%N
  | (_, m) :: r => ((if String.eqb m n && in_str m used0 then 1 else 0) + occ used0 r n)%N
  end.

(* a local whose name is taken gets name_j, j counting the earlier renamed locals of that name *)
Fixpoint closed_locals (f : string -> string) (used0 : list string) (done locals : list (N * string)) : list (N * string) :=
  match locals with
  | [] => []
  | (id, n) :: r =>
      (id, if in_str n used0 then cand (f n) (occ used0 done n) else f n) :: closed_locals f used0 ((id, n) :: done) r
  end.

Definition LocalsFresh (locals : list (N * string)) (used0 : list string) : Prop :=
  (forall n m k, In n (map snd locals) -> n <> cand m k) /\
  (forall n k, In n (map snd locals) -> ~ In (cand n k) used0).

Lemma assign_locals_closed (S : list string) (all used0 : list string) :
  (forall n m k, In n S -> n <> cand m k) ->
  (forall n k, In n S -> ~ In (cand n k) used0) ->
  incl all S ->
  forall locals done used out,
    incl (map snd locals) S ->
    (forall n, In n S -> in_str n used = in_str n used0) ->
    (forall n k, In n S -> (In (cand n k) used <-> (k < occ used0 done n)%N)) ->
    (forall n, (N.to_nat (occ used0 done n) + List.length used0 <= List.length used)%nat) ->
    assign_locals locals all used out = Some (rev out ++ closed_locals (fun x => x) used0 done locals)%list.
Proof.
  intros HA HB Hall.
  induction locals as [|[id n] r IH]; intros done used out Hin I1 I2 I3; cbn [NameGen.assign_locals closed_locals].
  - rewrite app_nil_r. reflexivity.
  - assert (Hn : In n S) by (apply Hin; left; reflexivity).
    assert (Hr : incl (map snd r) S) by (intros x Hx; apply Hin; right; exact Hx).
    rewrite (I1 n Hn). destruct (in_str n used0) eqn:U.
    + set (j := occ used0 done n).
      (* no local is called n_k, so the candidates of n among all ++ used are those in used *)
      assert (C : counted (all ++ used) n j).
      { intros k. rewrite in_app_iff, (I2 n k Hn). fold j.
        split; [intros [Hc|H]; [|exact H] | auto]. destruct (HA _ n k (Hall _ Hc) eq_refl). }
      rewrite find_free2, (find_free_counted n _ _ j (Nat.lt_succ_diag_r _) C).
      rewrite (IH ((id, n) :: done) (cand n j :: used) ((id, cand n j) :: out) Hr).
      * cbn [rev]. rewrite <- app_assoc. reflexivity.
      * intros m Hm. cbn [in_str existsb]. fold (in_str m used).
        replace (String.eqb m (cand n j)) with false; [apply I1; exact Hm|].
        symmetry. apply String.eqb_neq. apply HA. exact Hm.
      * intros m k Hm. cbn [occ]. rewrite U, andb_true_r. destruct (String.eqb n m) eqn:E.
        -- apply String.eqb_eq in E. subst m. rewrite N.add_comm. apply (counted_cons n used j (fun k => I2 n k Hn)).
        -- apply String.eqb_neq in E. cbn [In]. rewrite (I2 m k Hm), N.add_0_l.
           split; [intros [Hc|H]; [apply cand_inj2 in Hc as [Hc _]; congruence | exact H] | auto].
      * intros m. cbn [occ List.length]. specialize (I3 m). destruct (String.eqb n m && in_str n used0); lia.
    + rewrite (IH ((id, n) :: done) used ((id, n) :: out) Hr).
      * cbn [rev]. rewrite <- app_assoc. reflexivity.
      * exact I1.
      * intros m k Hm. cbn [occ]. rewrite U, andb_false_r. rewrite (I2 m k Hm). reflexivity.
      * intros m. cbn [occ]. rewrite U, andb_false_r. apply I3.
Qed.

Theorem assign_locals_fresh locals used0 :
  LocalsFresh locals used0 ->
  assign_locals locals (map snd locals) used0 [] = Some (closed_locals (fun x => x) used0 [] locals).
Proof.
  intros [HA HB].
  rewrite (assign_locals_closed (map snd locals) (map snd locals) used0 HA HB (incl_refl _) locals [] used0 []).
  - reflexivity.
  - apply incl_refl.
  - intros n _. reflexivity.
  - intros n k Hn. cbn [occ]. split; [intros H; exfalso; apply (HB n k Hn H)|lia].
  - intros n. cbn. lia.
Qed.

Definition ren_locals (f : string -> string) (locals : list (N * string)) : list (N * string) :=
  map (fun p => (fst p, f (snd p))) locals.

Lemma occ_ren f used0 used0' (S : list string) :
  (forall a b, In a S -> In b S -> f a = f b -> a = b) ->
  (forall n, In n S -> in_str (f n) used0' = in_str n used0) ->
  forall done n, incl (map snd done) S -> In n S ->
  occ used0' (ren_locals f done) (f n) = occ used0 done n.
Proof.
  intros Hinj Hmem. induction done as [|[id m] r IH]; intros n Hd Hn; [reflexivity|].
  cbn [ren_locals map occ fst snd].
  assert (Hm : In m S) by (apply Hd; left; reflexivity).
  rewrite (Hmem m Hm). fold (ren_locals f r). rewrite (IH n (fun x Hx => Hd x (or_intror Hx)) Hn).
  replace (String.eqb (f m) (f n)) with (String.eqb m n); [reflexivity|].
  destruct (String.eqb m n) eqn:E.
  - apply String.eqb_eq in E. subst. symmetry. apply String.eqb_refl.
  - symmetry. apply String.eqb_neq. intros Hf. apply String.eqb_neq in E. apply E. apply Hinj; assumption.
Qed.

Lemma closed_locals_ren f used0 used0' (S : list string) :
  (forall a b, In a S -> In b S -> f a = f b -> a = b) ->
  (forall n, In n S -> in_str (f n) used0' = in_str n used0) ->
  forall locals done, incl (map snd done) S -> incl (map snd locals) S ->
  closed_locals (fun x => x) used0' (ren_locals f done) (ren_locals f locals) = closed_locals f used0 done locals.
Proof.
  intros Hinj Hmem. induction locals as [|[id n] r IH]; intros done Hd Hl; [reflexivity|].
  cbn [ren_locals map closed_locals fst snd].
  assert (Hn : In n S) by (apply Hl; left; reflexivity).
  rewrite (Hmem n Hn). fold (ren_locals f done). rewrite (occ_ren f used0 used0' S Hinj Hmem done n Hd Hn).
  f_equal. fold (ren_locals f r).
  change ((id, f n) :: ren_locals f done) with (ren_locals f ((id, n) :: done)).
  apply IH; [|intros x Hx; apply Hl; right; exact Hx].
  intros x [<-|Hx]; [exact Hn|apply Hd; exact Hx].
Qed.
