(* LexerTriviaFloat.v — plain floating-point literals `digits.digits` (no exponent, no suffix): in front of a character
   that can neither continue the literal nor start a suffix it is read as the LiteralFloat of exactly that text,
   whatever follows; so it may stand in a `Pre2` prefix and in front of inserted trivia.  Laid out like LexerTriviaNum,
   whose lemmas on suffix tables it shares. *)
From Coq Require Import List NArith Bool String Ascii Arith Lia.
From RV Require Import Lexer LexerProofs LexerTrivia LexerTrivia2 LexerTrivia3 LexerTrivia7 LexerTrivia4 LexerTriviaNum.
Import ListNotations.
Local Open Scope string_scope.

Section Flt.
Variable keywords : list (string * string).
Variable reserved_words : list string.
Variable symbols : list (N * string * option string * option string).
Variable int_suffixes : list (list (list N) * string).
Variable float_suffixes : list (list N * string).
Variable float_is_zero : string -> bool.
Variable utf8_ok : string -> bool.

Notation tok_at := (tok_at keywords reserved_words symbols int_suffixes float_suffixes float_is_zero utf8_ok).
Notation lex_file := (lex_file keywords reserved_words symbols int_suffixes float_suffixes float_is_zero utf8_ok).
Notation Pre2 := (Pre2 keywords reserved_words symbols int_suffixes float_suffixes float_is_zero utf8_ok).
Notation stable := (stable keywords reserved_words symbols int_suffixes float_suffixes float_is_zero utf8_ok).

(* every float suffix is a letter (a check on the regenerated table) *)
Definition fsuffixes_alpha : bool :=
  forallb (fun '(cs, _) => forallb (fun n => is_alpha_ (ascii_of_N n)) cs) float_suffixes.

Lemma float_suffix_needs_alpha w r : fsuffixes_alpha = true -> is_alpha_ w = false -> float_suffix float_suffixes (String w r) = None.
Proof.
  intros Hs Hw. unfold float_suffix. rewrite (find_ext_checked _ _ (fun _ => false) _ Hs), find_never; [reflexivity|].
  intros [cs k] H. exact (existsb_code_alpha w cs H Hw).
Qed.

Definition ends_float (w : ascii) : Prop :=
  is_ident_char w = false /\ Ascii.eqb w "#" = false.

Lemma tstart_ends_float w : tstart w -> ends_float w.
Proof. intros [[ -> | [ -> | -> ] ]|[ -> | -> ]]; split; reflexivity. Qed.

Theorem plain_float_token c wh fr :
  fsuffixes_alpha = true ->
  all is_digit (String c wh) = true -> all is_digit fr = true ->
  let text := String c wh ++ String "." fr in stable ends_float text (TFloat FNone text).
Proof.
  intros Hs Hw Hf text w r (Wi & Wh).
  assert (Wi' := Wi). unfold is_ident_char in Wi'. apply orb_false_iff in Wi' as [Walpha Wdig].
  assert (Hc : is_digit c = true) by (cbn [all] in Hw; apply andb_true_iff in Hw as [H _]; exact H).
  assert (Etext : text ++ String w r = String c wh ++ String "." (fr ++ String w r)) by (unfold text; rewrite sapp_assoc; reflexivity).
  assert (Hlen : slen text = slen (String c wh) + 1 + slen fr) by (unfold text; rewrite slen_app, (slen_cons "." fr); lia).
  rewrite Etext. cbn [append]. rewrite (tok_at_digit _ _ _ Hc).
  change (String c (wh ++ String "." (fr ++ String w r))) with (String c wh ++ String "." (fr ++ String w r)).
  (* the mantissa is the text; behind it neither exponent nor #INF nor suffix, and w does not continue a word *)
  rewrite lex_float_unfold, (span_stop is_digit (String c wh) "." _ Hw eq_refl).
  change (Ascii.eqb "." ".") with true. cbv iota.
  rewrite (span_stop is_digit fr w r Hf Wdig), <- Etext, <- Hlen.
  unfold float_rest. rewrite drop_app. unfold lex_exponent.
  rewrite (class_neq is_alpha_ w "e" Walpha eq_refl), (class_neq is_alpha_ w "E" Walpha eq_refl). cbn [orb].
  unfold float_inf. rewrite Nat.add_0_r, (substring_app (slen text) text (String w r)) by lia.
  rewrite substring_all, drop_app, starts_cons, (Ascii.eqb_sym "#" w), Wh. cbn [andb].
  unfold float_finish. rewrite drop_app, (float_suffix_needs_alpha w r Hs Walpha). cbn [option_map fkind_of].
  rewrite Nat.add_0_r, drop_app, Wi. reflexivity.
Qed.

Lemma pre2_plain_float nxt c wh fr p :
  fsuffixes_alpha = true ->
  all is_digit (String c wh) = true -> all is_digit fr = true ->
  ends_float (next_char nxt p) ->
  Pre2 nxt p -> Pre2 nxt ((String c wh ++ String "." fr) ++ p).
Proof.
  intros Hs Hw Hf.
  exact (pre2_stable _ nxt c (wh ++ String "." fr) _ p (plain_float_token c wh fr Hs Hw Hf)).
Qed.

Corollary trivia_after_plain_float_behind_prefix2 p c wh fr b x spans :
  fsuffixes_alpha = true ->
  Pre2 c p ->
  all is_digit (String c wh) = true -> all is_digit fr = true ->
  let text := String c wh ++ String "." fr in
  tok_at false (text ++ b) = LOk (TFloat FNone text) (slen text) ->
  Trivia x ->
  lex_file (p ++ text ++ b) = SOk spans ->
  exists spans', lex_file (p ++ text ++ x ++ b) = SOk spans' /\ strip (toks spans') = strip (toks spans).
Proof.
  intros Hs Pp Hw Hf.
  exact (trivia_behind_stable _ p c (wh ++ String "." fr) _ b x spans Pp (plain_float_token c wh fr Hs Hw Hf) tstart_ends_float).
Qed.

End Flt.

Arguments plain_float_token [keywords reserved_words symbols int_suffixes float_suffixes float_is_zero utf8_ok].
