(* SemProofs.v — the encoding commutes with the renaming of locals, and the evaluator of model/Sem.v cannot tell a
   function from the same function with its locals renamed one-to-one (same returned value, same values copied back,
   same effect on everything that is not a local, for every fuel, argument list and interpretation of the words);
   hence two dumps that `Alpha.pair` accepts denote functions with the same behaviour. *)
From Coq Require Import List NArith Bool String Lia.
From RV Require Import Wire Alpha AlphaProofs Sem.
Import ListNotations.
Local Open Scope string_scope.
Local Open Scope list_scope.

Section ExprInd.
  Variable P : expr -> Prop.
  Hypothesis HLoc : forall x, P (ELoc x).
  Hypothesis HLeaf : forall l, P (ELeaf l).
  Hypothesis HGlob : forall n, P (EGlob n).
  Hypothesis HTern : forall c a b, P c -> P a -> P b -> P (ETern c a b).
  Hypothesis HSeq : forall es, Forall P es -> P (ESeq es).
  Hypothesis HAcc : forall l e, P e -> P (EAcc l e).
  Hypothesis HSub : forall a i, P a -> P i -> P (ESub a i).
  Hypothesis HCall : forall hd dirs args, Forall P args -> P (ECall hd dirs args).
  Hypothesis HCtor : forall ty ar es, Forall P es -> P (ECtor ty ar es).
  Hypothesis HOp : forall name args, Forall P args -> P (EOp name args).

  Fixpoint expr_ind' (e : expr) : P e :=
    let all := fix all (l : list expr) : Forall P l :=
                 match l with [] => Forall_nil P | x :: r => Forall_cons x (expr_ind' x) (all r) end in
    match e with
    | ELoc x => HLoc x
    | ELeaf l => HLeaf l
    | EGlob n => HGlob n
    | ETern c a b => HTern c a b (expr_ind' c) (expr_ind' a) (expr_ind' b)
    | ESeq es => HSeq es (all es)
    | EAcc l e => HAcc l e (expr_ind' e)
    | ESub a i => HSub a i (expr_ind' a) (expr_ind' i)
    | ECall hd dirs args => HCall hd dirs args (all args)
    | ECtor ty ar es => HCtor ty ar es (all es)
    | EOp name args => HOp name args (all args)
    end.
End ExprInd.

Section InitInd.
  Variable P : init -> Prop.
  Hypothesis HN : P INone.
  Hypothesis HE : forall e, P (IExp e).
  Hypothesis HA : forall l, Forall P l -> P (IAgg l).
  Fixpoint init_ind' (i : init) : P i :=
    match i with
    | INone => HN
    | IExp e => HE e
    | IAgg l => HA l ((fix all (l : list init) : Forall P l :=
                         match l with [] => Forall_nil P | x :: r => Forall_cons x (init_ind' x) (all r) end) l)
    end.
End InitInd.

Section StmtInd.
  Variable P : stmt -> Prop.
  Hypothesis HAttr : forall w s, P s -> P (SAttr w s).
  Hypothesis HExpr : forall e, P (SExpr e).
  Hypothesis HVar : forall d, P (SVar d).
  Hypothesis HBlock : forall b, Forall P b -> P (SBlock b).
  Hypothesis HIf : forall c b, Forall P b -> P (SIf c b).
  Hypothesis HIfElse : forall c a b, Forall P a -> Forall P b -> P (SIfElse c a b).
  Hypothesis HFor : forall fi c inc b, Forall P b -> P (SFor fi c inc b).
  Hypothesis HWhile : forall c b, Forall P b -> P (SWhile c b).
  Hypothesis HDo : forall b c, Forall P b -> P (SDo b c).
  Hypothesis HSwitch : forall c b, Forall P b -> P (SSwitch c b).
  Hypothesis HWord : forall l, P (SWord l).
  Hypothesis HRet : forall e, P (SRet e).
  Fixpoint stmt_ind' (s : stmt) : P s :=
    let all := fix all (l : list stmt) : Forall P l :=
                 match l with [] => Forall_nil P | x :: r => Forall_cons x (stmt_ind' x) (all r) end in
    match s with
    | SAttr w s => HAttr w s (stmt_ind' s)
    | SExpr e => HExpr e
    | SVar d => HVar d
    | SBlock b => HBlock b (all b)
    | SIf c b => HIf c b (all b)
    | SIfElse c a b => HIfElse c a b (all a) (all b)
    | SFor fi c inc b => HFor fi c inc b (all b)
    | SWhile c b => HWhile c b (all b)
    | SDo b c => HDo b c (all b)
    | SSwitch c b => HSwitch c b (all b)
    | SWord l => HWord l
    | SRet e => HRet e
    end.
End StmtInd.

Lemma rename_id r a : rename r (Id a) = Id (rn_id r a).
Proof. unfold rename, rn_id. destruct (lookup_l r a); reflexivity. Qed.

Lemma map_ws r l : map (rename r) (ws l) = ws l.
Proof. unfold ws. rewrite map_map. reflexivity. Qed.

Lemma map_flat_map {A} (f : tok -> tok) (g : A -> list tok) l : map f (flat_map g l) = flat_map (fun x => map f (g x)) l.
Proof. induction l as [|x l IH]; cbn; [reflexivity|]. rewrite map_app, IH. reflexivity. Qed.

Lemma flat_map_rn {A} (g : A -> list tok) (h : A -> A) (f : tok -> tok) l :
  Forall (fun x => g (h x) = map f (g x)) l -> flat_map g (map h l) = map f (flat_map g l).
Proof.
  intros H. rewrite map_flat_map. induction H as [|x l Hx _ IH]; cbn; [reflexivity|]. rewrite Hx, IH. reflexivity.
Qed.

Lemma count_map {A B} (h : A -> B) l : count (map h l) = count l.
Proof. unfold count. rewrite map_length. reflexivity. Qed.

Lemma rename_W r s : rename r (W s) = W s. Proof. reflexivity. Qed.
Lemma rename_count {A} r (l : list A) : rename r (count l) = count l. Proof. reflexivity. Qed.

(* [norm]: push `map (rename r)` through appends, conses and word lists, down to the sub-encodings; then the single tokens:
   an identifier by rename_id, a word by evaluation, a count by rename_count.  The counts come last: as one rewrite among
   the others, rename_count has `count ?l` matched against every literal word, which is slow. *)
Ltac norm :=
  rewrite ?count_map; repeat (progress (rewrite ?map_app, ?map_ws; cbn [map])); rewrite ?rename_id; cbn [rename];
  rewrite ?rename_count.

Lemma enc_rn r e : enc (rn r e) = map (rename r) (enc e).
Proof.
  induction e using expr_ind'; cbn [rn enc]; norm;
    repeat match goal with H : Forall _ ?b |- _ => rewrite (flat_map_rn enc (rn r) (rename r) b H); clear H end;
    try congruence.
  (* a call: the words for the parameters hold no identifier *)
  assert (D : map (rename r) (flat_map (fun d : string * list string => W (fst d) :: ws (snd d)) dirs) =
              flat_map (fun d => W (fst d) :: ws (snd d)) dirs).
  { induction dirs as [|d dirs IHd]; cbn [flat_map map]; [reflexivity|]. norm. rewrite IHd. reflexivity. }
  rewrite D. reflexivity.
Qed.

Lemma enc_init_rn r i : enc_init (rn_init r i) = map (rename r) (enc_init i).
Proof.
  induction i using init_ind'; cbn [rn_init enc_init]; norm; rewrite ?enc_rn;
    repeat match goal with H : Forall _ ?b |- _ => rewrite (flat_map_rn enc_init (rn_init r) (rename r) b H); clear H end;
    reflexivity.
Qed.

Lemma enc_vardef_rn r d : enc_vardef (rn_vardef r d) = map (rename r) (enc_vardef d).
Proof. destruct d as [[x l] i]. cbn [rn_vardef enc_vardef]. norm. rewrite enc_init_rn. reflexivity. Qed.

Lemma enc_opt_rn r o : enc_opt (rn_opt r o) = map (rename r) (enc_opt o).
Proof. destruct o as [e|]; cbn; [rewrite enc_rn|]; reflexivity. Qed.

Lemma enc_stmt_rn r s : enc_stmt (rn_stmt r s) = map (rename r) (enc_stmt s).
Proof.
  induction s using stmt_ind'; cbn [rn_stmt enc_stmt]; norm;
    rewrite ?enc_rn, ?enc_opt_rn, ?enc_vardef_rn;
    repeat match goal with H : Forall _ ?b |- _ => rewrite (flat_map_rn enc_stmt (rn_stmt r) (rename r) b H); clear H end;
    try congruence.
  (* a for loop: its initialiser is left *)
  f_equal. f_equal. destruct fi as [|e|ds]; cbn [map rename]; norm; rewrite ?enc_rn; try reflexivity.
    rewrite (flat_map_rn enc_vardef (rn_vardef r) (rename r)); [reflexivity|].
    apply Forall_forall. intros d _. apply enc_vardef_rn.
Qed.

Lemma enc_param_rn r p : enc_param (rn_param r p) = map (rename r) (enc_param p).
Proof. destruct p as [[[x d] ty] o]. cbn [rn_param enc_param]. norm. rewrite enc_opt_rn. reflexivity. Qed.

Theorem enc_func_rn r f : enc_func (rn_func r f) = map (rename r) (enc_func f).
Proof.
  unfold enc_func, enc_block, rn_func. cbn [f_ret f_params f_body]. norm.
  rewrite (flat_map_rn enc_param (rn_param r) (rename r)) by (apply Forall_forall; intros p _; apply enc_param_rn).
  rewrite (flat_map_rn enc_stmt (rn_stmt r) (rename r)) by (apply Forall_forall; intros p _; apply enc_stmt_rn).
  reflexivity.
Qed.

Lemma cov_app r a b : covered r (a ++ b) <-> covered r a /\ covered r b.
Proof.
  unfold covered. split.
  - intros H. split; intros x Hx; apply H, in_or_app; [left|right]; exact Hx.
  - intros [Ha Hb] x Hx. apply in_app_or in Hx as [Hx|Hx]; [apply Ha|apply Hb]; exact Hx.
Qed.
Lemma cov_cons r t l : covered r (t :: l) -> covered r l.
Proof. intros H x Hx. apply H. right. exact Hx. Qed.
Lemma cov_flat {A} r (g : A -> list tok) l : covered r (flat_map g l) -> Forall (fun x => covered r (g x)) l.
Proof.
  induction l as [|x l IH]; cbn [flat_map]; intros H; constructor.
  - apply cov_app in H. apply H.
  - apply IH. apply cov_app in H. apply H.
Qed.
Lemma cov_id r x l : covered r (Id x :: l) -> lookup_l r x = Some (rn_id r x).
Proof.
  intros H. unfold rn_id. destruct (lookup_l r x) eqn:E; [reflexivity|]. exfalso. apply (H x); [left; reflexivity|exact E].
Qed.

Lemma cov_some r e : covered r (enc e) -> covered r (enc_opt (Some e)).
Proof. intros H a Ha. destruct Ha as [Ha|Ha]; [discriminate|apply H; exact Ha]. Qed.
Lemma cov_none r : covered r (enc_opt None).
Proof. intros a [Ha|[]]. discriminate. Qed.

(* [cov]: split every hypothesis `covered r (w :: a ++ b ++ ..)` into hypotheses on a, b, ..; a leading identifier
   stays, for cov_id *)
Ltac cov :=
  repeat match goal with
         | H : covered _ (_ ++ _) |- _ => apply cov_app in H; destruct H
         | H : covered _ (W _ :: _) |- _ => apply cov_cons in H
         | H : covered _ (count _ :: _) |- _ => apply cov_cons in H
         end.

Section Equiv.
  Context {V G : Type} (I : interp V G).
  Variable r : corr.
  Hypothesis B : bij r.
  Local Notation ST := (@st V G).
  Local Notation LV := (@lv V).

  Definition Rel (l l' : (@locals V)) : Prop := forall a b, lookup_l r a = Some b -> l a = l' b.
  Definition RelSt (s s' : ST) : Prop := Rel (fst s) (fst s') /\ snd s = snd s'.
  Definition RelO {A} (RA : A -> A -> Prop) (o o' : option (A * ST)) : Prop :=
    match o, o' with
    | None, None => True
    | Some (a, s), Some (a', s') => RA a a' /\ RelSt s s'
    | _, _ => False
    end.
  Definition RelS (o o' : option (ST)) : Prop :=
    match o, o' with None, None => True | Some s, Some s' => RelSt s s' | _, _ => False end.

  Lemma RelO_inv {A} (RA : A -> A -> Prop) o o' : RelO RA o o' ->
    o = None /\ o' = None \/ exists a t a' t', o = Some (a, t) /\ o' = Some (a', t') /\ RA a a' /\ RelSt t t'.
  Proof. destruct o as [[a t]|], o' as [[a' t']|]; cbn; try contradiction; [right; eauto 8 | left; auto]. Qed.

  Lemma RelS_inv o o' : RelS o o' -> o = None /\ o' = None \/ exists t t', o = Some t /\ o' = Some t' /\ RelSt t t'.
  Proof. destruct o as [t|], o' as [t'|]; cbn; try contradiction; [right; eauto | left; auto]. Qed.

  (* [sides H as pat]: H relates two optional results (RelO or RelS) from which the goal, itself such a relation, computes.
     Where both are None the goal holds by evaluation; otherwise pat names their values. *)
  Tactic Notation "sides" constr(H) "as" simple_intropattern(pat) :=
    let E := fresh in let E' := fresh in
    first [destruct (RelO_inv _ _ _ H) as [[E E']|pat] | destruct (RelS_inv _ _ H) as [[E E']|pat]];
    [rewrite E, E'; first [exact Logic.I | reflexivity]|].

  Lemma upd_rel l l' x x' v : Rel l l' -> lookup_l r x = Some x' -> Rel (upd l x v) (upd l' x' v).
  Proof.
    intros H Hx a b Hab. unfold upd. destruct (N.eqb a x) eqn:E.
    - apply N.eqb_eq in E. subst a. assert (b = x') by congruence. subst b. rewrite N.eqb_refl. reflexivity.
    - destruct (N.eqb b x') eqn:E'; [|apply H; exact Hab].
      apply N.eqb_eq in E'. subst b. destruct B as [B1 _].
      pose proof (B1 _ _ Hab) as R1. pose proof (B1 _ _ Hx) as R2. rewrite R1 in R2. inversion R2. subst.
      rewrite N.eqb_refl in E. discriminate.
  Qed.

  Lemma bind_rel {A C} (RA : A -> A -> Prop) (RC : C -> C -> Prop) o o' k k' :
    RelO RA o o' -> (forall a a' t t', RA a a' -> RelSt t t' -> RelO RC (k a t) (k' a' t')) ->
    RelO RC (bind o k) (bind o' k').
  Proof.
    intros H K. sides H as (a & t & a' & t' & -> & -> & Ha & Ht). apply K; assumption.
  Qed.

  Lemma lift_rel {A} (o : option A) s s' : RelSt s s' -> RelO eq (lift o s) (lift o s').
  Proof. intros H. destruct o; cbn; [split; [reflexivity|exact H]|exact Logic.I]. Qed.

  Lemma bind_lift_rel {A C} (f : A -> option C) o o' :
    RelO eq o o' -> RelO eq (bind o (fun a t => lift (f a) t)) (bind o' (fun a t => lift (f a) t)).
  Proof. intros H. apply (bind_rel eq eq _ _ _ _ H). intros a a' t t' -> Ht. apply lift_rel. exact Ht. Qed.

  Lemma ret_rel {A} (a : A) o o' : RelS o o' ->
    RelO eq (match o with Some t => Some (a, t) | None => None end) (match o' with Some t => Some (a, t) | None => None end).
  Proof. intros H. sides H as (t & t' & -> & -> & Ht). split; [reflexivity|exact Ht]. Qed.

  Definition RelB (b b' : base) : Prop :=
    match b, b' with
    | BLoc x, BLoc x' => lookup_l r x = Some x'
    | BGlob n, BGlob n' => n = n'
    | _, _ => False
    end.
  Definition RelLv (p p' : LV) : Prop := RelB (fst p) (fst p') /\ snd p = snd p'.

  Lemma base_get_rel b b' s s' : RelB b b' -> RelSt s s' -> base_get I b s = base_get I b' s'.
  Proof.
    intros Hb [Hl Hg]. destruct b, b'; cbn in *; try contradiction.
    - apply Hl. exact Hb.
    - subst. rewrite Hg. reflexivity.
  Qed.

  Lemma base_put_rel b b' v s s' : RelB b b' -> RelSt s s' -> RelS (base_put I b v s) (base_put I b' v s').
  Proof.
    intros Hb [Hl Hg]. destruct b, b'; cbn in *; try contradiction.
    - split; [apply upd_rel; assumption|exact Hg].
    - subst. rewrite Hg. destruct (gput I n0 v (snd s')); cbn; [split; [exact Hl|reflexivity]|exact Logic.I].
  Qed.

  Lemma lv_get_rel p p' s s' : RelLv p p' -> RelSt s s' -> lv_get I p s = lv_get I p' s'.
  Proof. intros [Hb Hp] Hs. unfold lv_get. rewrite (base_get_rel _ _ _ _ Hb Hs), Hp. reflexivity. Qed.

  Lemma lv_put_rel p p' v s s' : RelLv p p' -> RelSt s s' -> RelS (lv_put I p v s) (lv_put I p' v s').
  Proof.
    intros [Hb Hp] Hs. unfold lv_put. rewrite <- Hp. destruct (snd p) as [|a q]; [apply base_put_rel; assumption|].
    rewrite (base_get_rel _ _ _ _ Hb Hs). destruct (base_get I (fst p') s'); [|exact Logic.I].
    destruct (path_put I (a :: q) v0 v); [apply base_put_rel; assumption|exact Logic.I].
  Qed.

  (* the expression level, given the evaluator with less fuel *)
  Section Level.
    Variable evf : expr -> ST -> option (V * ST).
    Hypothesis IH : forall e s s', covered r (enc e) -> RelSt s s' -> RelO eq (evf e s) (evf (rn r e) s').

    Lemma evs_rel es : forall s s', Forall (fun e => covered r (enc e)) es -> RelSt s s' ->
      RelO eq (evs evf es s) (evs evf (map (rn r) es) s').
    Proof.
      induction es as [|e es IHes]; intros s s' C Hs; cbn [evs map]; [split; [reflexivity|exact Hs]|].
      inversion C; subst. eapply bind_rel; [apply IH; assumption|]. intros v v' t t' -> Ht.
      eapply bind_rel; [apply IHes; assumption|]. intros vs vs' u u' -> Hu. split; [reflexivity|exact Hu].
    Qed.

    Lemma lval_rel e : forall s s', covered r (enc e) -> RelSt s s' -> RelO RelLv (lval evf e s) (lval evf (rn r e) s').
    Proof.
      induction e using expr_ind'; intros s s' C Hs; cbn [lval rn enc] in *; try exact Logic.I.
      - (* ELoc *) cov. split; [|exact Hs]. split; [exact (cov_id r x _ C)|reflexivity].
      - (* EGlob *) split; [|exact Hs]. split; reflexivity.
      - (* EAcc *) cov. eapply bind_rel; [apply IHe; eassumption|]. intros b b' t t' [Hb Hp] Ht. split; [|exact Ht].
        split; cbn; [exact Hb|rewrite Hp; reflexivity].
      - (* ESub *) cov. eapply bind_rel; [apply IHe1; eassumption|]. intros b b' t t' [Hb Hp] Ht.
        eapply bind_rel; [apply IH; eassumption|]. intros vi vi' u u' -> Hu. split; [|exact Hu].
        split; cbn; [exact Hb|rewrite Hp; reflexivity].
    Qed.

    Definition RelArg (a a' : option V * option (LV)) : Prop :=
      fst a = fst a' /\ match snd a, snd a' with Some p, Some p' => RelLv p p' | None, None => True | _, _ => False end.

    Lemma evargs_rel dirs : forall es s s', Forall (fun e => covered r (enc e)) es -> RelSt s s' ->
      RelO (Forall2 RelArg) (evargs I evf dirs es s) (evargs I evf dirs (map (rn r) es) s').
    Proof.
      induction dirs as [|d dirs IHd]; intros [|e es] s s' C Hs; cbn [evargs map]; try exact Logic.I;
        try (split; [constructor|exact Hs]).
      inversion C; subst. destruct (String.eqb (fst d) "0").
      - eapply bind_rel; [apply IH; assumption|]. intros v v' t t' -> Ht.
        eapply bind_rel; [apply IHd; assumption|]. intros l l' u u' Hl Hu. split; [|exact Hu].
        constructor; [split; [reflexivity|exact Logic.I]|exact Hl].
      - eapply bind_rel; [apply lval_rel; assumption|]. intros p p' t t' Hp Ht.
        eapply (bind_rel eq).
        + destruct (String.eqb (fst d) "1"); [split; [reflexivity|exact Ht]|].
          rewrite (lv_get_rel _ _ _ _ Hp Ht). apply lift_rel. exact Ht.
        + intros v v' u u' -> Hu. eapply bind_rel; [apply IHd; assumption|]. intros l l' w w' Hl Hw. split; [|exact Hw].
          constructor; [split; [reflexivity|exact Hp]|exact Hl].
    Qed.

    Lemma copy_back_rel l l' : Forall2 RelArg l l' -> forall outs s s', RelSt s s' ->
      RelS (copy_back I l outs s) (copy_back I l' outs s').
    Proof.
      induction 1 as [|a a' l l' Ha _ IHl]; intros outs s s' Hs; cbn [copy_back]; [exact Hs|].
      destruct a as [v [p|]], a' as [v' [p'|]]; destruct Ha as [_ Ha]; cbn in Ha; try contradiction.
      - destruct outs as [|o outs]; [exact Logic.I|].
        sides (lv_put_rel _ _ o _ _ Ha Hs) as (t & t' & -> & -> & Ht). apply IHl. exact Ht.
      - destruct outs as [|o outs]; [exact Logic.I|]. apply IHl. exact Hs.
    Qed.

    Lemma map_fst_rel l l' : Forall2 RelArg l l' -> map fst l = map fst l'.
    Proof. induction 1 as [|a a' l l' [Ha _] _ IHl]; cbn; [reflexivity|]. rewrite Ha, IHl. reflexivity. Qed.

    Lemma ev1_rel e s s' : covered r (enc e) -> RelSt s s' -> RelO eq (ev1 I evf e s) (ev1 I evf (rn r e) s').
    Proof.
      (* Each case follows the evaluator's own binds: bind_rel relates a sub-evaluation (by IH, evs_rel, lval_rel,
         evargs_rel) and hands on equal values and related states; the rest is a pure function of the values
         (bind_lift_rel) or a read / write through related places (lv_get_rel, lv_put_rel). *)
      intros C Hs. pose proof Hs as [Sl Sg]. destruct e; cbn [ev1 rn enc] in *.
      - (* ELoc *) cov. rewrite (Sl x (rn_id r x) (cov_id r x _ C)). apply lift_rel, Hs.
      - (* ELeaf *) rewrite Sg. apply lift_rel, Hs.
      - (* EGlob *) rewrite Sg. apply lift_rel, Hs.
      - (* ETern *) cov. eapply bind_rel; [apply IH; eassumption|]. intros v v' t t' -> Ht.
        destruct (truth I v') as [[|]|]; [apply IH; assumption|apply IH; assumption|exact Logic.I].
      - (* ESeq *) cov. apply bind_lift_rel, evs_rel; [apply cov_flat; assumption|exact Hs].
      - (* EAcc *) cov. apply bind_lift_rel, IH; assumption.
      - (* ESub *) cov. eapply bind_rel; [apply IH; eassumption|]. intros v v' t t' -> Ht. apply bind_lift_rel, IH; assumption.
      - (* ECall: equal argument values, so the same answer of the callee; its out values go back through related places *)
        cov.
        eapply bind_rel; [apply evargs_rel; [apply cov_flat; eassumption|exact Hs]|].
        intros l l' t t' Hl [Ht Hg]. rewrite (map_fst_rel _ _ Hl), Hg.
        destruct (call I hd dirs (map fst l') (snd t')) as [[[v outs] g]|]; [|exact Logic.I].
        apply ret_rel, copy_back_rel; [exact Hl|]. split; [exact Ht|reflexivity].
      - (* ECtor *) cov. apply bind_lift_rel, evs_rel; [apply cov_flat; assumption|exact Hs].
      - (* EOp *) cov. match goal with H : covered r (flat_map enc _) |- _ => apply cov_flat in H; rename H into CA end.
        destruct (assign_base name) as [b|].
        + (* an assignment *) destruct args as [|l [|rr [|x args]]]; cbn [map]; try exact Logic.I.
          inversion CA as [|? ? Cl CA1]; subst. inversion CA1 as [|? ? Cr _]; subst.
          eapply bind_rel; [apply lval_rel; eassumption|]. intros p p' t t' Hp Ht.
          eapply bind_rel; [apply IH; eassumption|]. intros vr vr' u u' -> Hu.
          rewrite (lv_get_rel _ _ _ _ Hp Hu).
          destruct (match b with Some o => match lv_get I p' u' with Some old => op I o [old; vr'] | None => None end | None => Some vr' end) as [n|]; [|exact Logic.I].
          apply ret_rel, lv_put_rel; assumption.
        + destruct (incdec name) as [pre|].
          * (* an increment or decrement *) destruct args as [|l [|x args]]; cbn [map]; try exact Logic.I.
            inversion CA as [|? ? Cl _]; subst.
            eapply bind_rel; [apply lval_rel; eassumption|]. intros p p' t t' Hp Ht.
            rewrite (lv_get_rel _ _ _ _ Hp Ht). destruct (lv_get I p' t') as [old|]; [|exact Logic.I].
            destruct (op I name [old]) as [n|]; [|exact Logic.I].
            apply ret_rel, lv_put_rel; assumption.
          * (* an operator that only computes *) apply bind_lift_rel, evs_rel; [exact CA|exact Hs].
    Qed.
  End Level.

  Theorem ev_rel : forall fuel e s s', covered r (enc e) -> RelSt s s' -> RelO eq (ev I fuel e s) (ev I fuel (rn r e) s').
  Proof.
    induction fuel as [|f IHf]; intros e s s' C Hs; cbn [ev]; [exact Logic.I|]. apply ev1_rel; [exact IHf|exact C|exact Hs].
  Qed.

  Lemma ev_init_rel : forall fuel ty i s s', covered r (enc_init i) -> RelSt s s' ->
    RelO eq (ev_init I fuel ty i s) (ev_init I fuel ty (rn_init r i) s').
  Proof.
    induction fuel as [|f IHf]; intros ty i s s' C Hs; cbn [ev_init]; [exact Logic.I|].
    destruct i as [|e|l]; cbn [rn_init enc_init] in *.
    - apply lift_rel. exact Hs.
    - apply ev_rel; [cov; assumption|exact Hs].
    - cov. match goal with H : covered r (flat_map enc_init _) |- _ => apply cov_flat in H; rename H into CA end.
      apply bind_lift_rel.
      revert s s' Hs. induction l as [|x l IHl]; intros s s' Hs; cbn [map]; [split; [reflexivity|exact Hs]|].
      inversion CA; subst. eapply bind_rel; [apply IHf; eassumption|]. intros v v' t t' -> Ht.
      eapply bind_rel; [apply IHl; assumption|]. intros vs vs' u u' -> Hu. split; [reflexivity|exact Hu].
  Qed.

  Lemma ex_vardef_rel fuel d s s' : covered r (enc_vardef d) -> RelSt s s' ->
    RelS (ex_vardef I fuel d s) (ex_vardef I fuel (rn_vardef r d) s').
  Proof.
    destruct d as [[x ty] i]. cbn [enc_vardef rn_vardef ex_vardef]. intros C Hs.
    pose proof (cov_id r x _ C) as Hx. apply cov_cons in C. cov.
    sides (ev_init_rel fuel ty i s s' ltac:(assumption) Hs) as (v & t & v' & t' & -> & -> & -> & [Hl Hg]).
    split; cbn; [apply upd_rel; assumption|exact Hg].
  Qed.

  Lemma ex_vardefs_rel fuel ds : forall s s', Forall (fun d => covered r (enc_vardef d)) ds -> RelSt s s' ->
    RelS (ex_vardefs I fuel ds s) (ex_vardefs I fuel (map (rn_vardef r) ds) s').
  Proof.
    induction ds as [|d ds IHd]; intros s s' C Hs; cbn [ex_vardefs map]; [exact Hs|]. inversion C; subst.
    sides (ex_vardef_rel fuel d s s' ltac:(assumption) Hs) as (t & t' & -> & -> & Ht). apply IHd; assumption.
  Qed.

  Lemma cond_rel fuel c s s' : covered r (enc_opt c) -> RelSt s s' -> RelO eq (cond I fuel c s) (cond I fuel (rn_opt r c) s').
  Proof.
    intros C Hs. destruct c as [e|]; cbn [cond rn_opt option_map enc_opt] in *; [|split; [reflexivity|exact Hs]].
    cov. sides (ev_rel fuel e s s' C Hs) as (v & t & v' & t' & -> & -> & -> & Ht).
    destruct (truth I v'); [split; [reflexivity|exact Ht]|exact Logic.I].
  Qed.

  Lemma cond_some_rel fuel c s s' : covered r (enc c) -> RelSt s s' ->
    RelO eq (cond I fuel (Some c) s) (cond I fuel (Some (rn r c)) s').
  Proof. intros C. exact (cond_rel fuel (Some c) s s' (cov_some r c C)). Qed.

  (* Where a switch enters: renaming changes no label, so the entry is found at the same place; it is a tail of the
     block, so what holds of every statement of the block holds of every statement of the entry. *)
  Lemma find_case_rn (P : stmt -> Prop) b v : Forall P b ->
    find_case I (map (rn_stmt r) b) v = option_map (option_map (map (rn_stmt r))) (find_case I b v) /\
    forall r0, find_case I b v = Some (Some r0) -> Forall P r0.
  Proof.
    induction 1 as [|x b _ Fb IH]; [split; [reflexivity|discriminate]|]. cbn [map].
    destruct x; cbn [rn_stmt find_case]; try exact IH.
    destruct ws as [|w cw]; [exact IH|]. destruct (String.eqb w "SCase"); [|exact IH].
    destruct (case_match I cw v) as [[|]|]; [|exact IH|].
    - split; [reflexivity|]. intros r0 E. inversion E; subst. exact Fb.
    - split; [reflexivity|discriminate].
  Qed.

  Lemma find_default_rn (P : stmt -> Prop) b : Forall P b ->
    find_default (map (rn_stmt r) b) = option_map (map (rn_stmt r)) (find_default b) /\
    forall r0, find_default b = Some r0 -> Forall P r0.
  Proof.
    induction 1 as [|x b _ Fb IH]; [split; [reflexivity|discriminate]|]. cbn [map].
    destruct x; cbn [rn_stmt find_default]; try exact IH.
    destruct ws as [|w [|w2 l]]; try exact IH. destruct (String.eqb w "SDefault"); [|exact IH].
    split; [reflexivity|]. intros r0 E. inversion E; subst. exact Fb.
  Qed.

  Section SLevel.
    Variable exf : stmt -> ST -> option (outcome (V := V) * ST).
    Variable fuel : nat.
    Hypothesis IH : forall x s s', covered r (enc_stmt x) -> RelSt s s' -> RelO eq (exf x s) (exf (rn_stmt r x) s').

    Lemma ex_block_rel b : forall s s', Forall (fun x => covered r (enc_stmt x)) b -> RelSt s s' ->
      RelO eq (ex_block exf b s) (ex_block exf (map (rn_stmt r) b) s').
    Proof.
      induction b as [|x b IHb]; intros s s' C Hs; cbn [ex_block map]; [split; [reflexivity|exact Hs]|].
      inversion C; subst. sides (IH x s s' ltac:(assumption) Hs) as (o & t & o' & t' & -> & -> & <- & Ht).
      destruct o; try (split; [reflexivity|exact Ht]). apply IHb; assumption.
    Qed.

    Lemma loop_rel c inc b : covered r (enc_opt c) -> covered r (enc_opt inc) -> Forall (fun x => covered r (enc_stmt x)) b ->
      forall n first s s', RelSt s s' ->
      RelO eq (loop I exf fuel n first c inc b s) (loop I exf fuel n first (rn_opt r c) (rn_opt r inc) (map (rn_stmt r) b) s').
    Proof.
      intros Cc Ci Cb. induction n as [|m IHm]; intros first s s' Hs; cbn [loop]; [exact Logic.I|].
      assert (P : RelO eq (if first then Some (true, s) else cond I fuel c s) (if first then Some (true, s') else cond I fuel (rn_opt r c) s')).
      { destruct first; [split; [reflexivity|exact Hs]|apply cond_rel; assumption]. }
      sides P as (bb & t & bb' & t' & -> & -> & <- & Ht). destruct bb; [|split; [reflexivity|exact Ht]].
      sides (ex_block_rel b t t' Cb Ht) as (o & u & o' & u' & -> & -> & <- & Hu).
      destruct inc as [e|]; cbn [rn_opt option_map enc_opt] in *.
      - cov. destruct o; try (split; [reflexivity|exact Hu]);
          (sides (ev_rel fuel e u u' Ci Hu) as (v & w & v' & w' & -> & -> & _ & Hw); apply IHm; exact Hw).
      - destruct o; try (split; [reflexivity|exact Hu]); apply IHm; exact Hu.
    Qed.

    Lemma ex1_rel x s s' : covered r (enc_stmt x) -> RelSt s s' -> RelO eq (ex1 I exf fuel x s) (ex1 I exf fuel (rn_stmt r x) s').
    Proof.
      intros C Hs. destruct x; cbn [ex1 rn_stmt enc_stmt] in *.
      - (* SAttr *) apply IH; [cov; exact C|exact Hs].
      - (* SExpr *) cov. sides (ev_rel fuel e s s' C Hs) as (v & t & v' & t' & -> & -> & _ & Ht). split; [reflexivity|exact Ht].
      - (* SVar *) cov. apply ret_rel, ex_vardef_rel; assumption.
      - (* SBlock *) cov. apply ex_block_rel; [apply cov_flat; assumption|exact Hs].
      - (* SIf *) cov. sides (cond_some_rel fuel c s s' ltac:(assumption) Hs) as (bb & t & bb' & t' & -> & -> & <- & Ht).
        destruct bb; [|split; [reflexivity|exact Ht]]. apply ex_block_rel; [apply cov_flat; assumption|exact Ht].
      - (* SIfElse *) cov. sides (cond_some_rel fuel c s s' ltac:(assumption) Hs) as (bb & t & bb' & t' & -> & -> & <- & Ht).
        destruct bb; apply ex_block_rel; try (apply cov_flat; assumption); exact Ht.
      - (* SFor: the initialiser, then the loop *) apply cov_cons in C. apply cov_app in C as [Cf C]. apply cov_app in C as [Cc C]. apply cov_app in C as [Ci C].
        apply cov_cons in C. apply cov_flat in C. destruct fi as [|e|ds].
        + apply loop_rel; assumption.
        + cov. sides (ev_rel fuel e s s' Cf Hs) as (v & t & v' & t' & -> & -> & _ & Ht). apply loop_rel; assumption.
        + cov. sides (ex_vardefs_rel fuel ds s s' ltac:(apply cov_flat; assumption) Hs) as (t & t' & -> & -> & Ht).
          apply loop_rel; assumption.
      - (* SWhile *) cov. apply (loop_rel (Some c) None); [apply cov_some; assumption | apply cov_none | apply cov_flat; assumption | exact Hs].
      - (* SDo: the same loop, entered without the test *)
        cov. apply (loop_rel (Some c) None); [apply cov_some; assumption | apply cov_none | apply cov_flat; assumption | exact Hs].
      - (* SSwitch: both sides enter the block at the same place (find_case_rn, find_default_rn) *)
        cov. match goal with H : covered r (flat_map enc_stmt _) |- _ => apply cov_flat in H; rename H into Cb end.
        sides (ev_rel fuel c s s' ltac:(assumption) Hs) as (v & t & v' & t' & -> & -> & -> & Ht).
        destruct (find_case_rn _ b v' Cb) as [-> FC]. destruct (find_default_rn _ b Cb) as [-> FD].
        assert (entry : forall x, Forall (fun y => covered r (enc_stmt y)) x ->
                  RelO eq (match ex_block exf x t with Some (OBreak, u) => Some (ONormal, u) | other => other end)
                          (match ex_block exf (map (rn_stmt r) x) t' with Some (OBreak, u) => Some (ONormal, u) | other => other end)).
        { intros x Cx. sides (ex_block_rel x t t' Cx Ht) as (o & u & o' & u' & -> & -> & <- & Hu).
          destruct o; split; try reflexivity; exact Hu. }
        destruct (find_case I b v') as [[x|]|]; cbn [option_map]; [apply entry, FC; reflexivity | | exact Logic.I].
        destruct (find_default b) as [x|]; cbn [option_map]; [apply entry, FD; reflexivity | split; [reflexivity|exact Ht]].
      - (* SWord: no identifier, the same outcome in related states *)
        destruct ws as [|w rest]; [exact Logic.I|]. destruct (String.eqb w "SCase"); [split; [reflexivity|exact Hs]|].
        destruct rest; [|exact Logic.I].
        repeat match goal with |- context [if ?c then _ else _] => destruct c end;
          first [exact Logic.I | split; [reflexivity|exact Hs]].
      - (* SRet *) cov. sides (ev_rel fuel e s s' C Hs) as (v & t & v' & t' & -> & -> & -> & Ht). split; [reflexivity|exact Ht].
    Qed.
  End SLevel.

  Theorem ex_rel : forall fuel x s s', covered r (enc_stmt x) -> RelSt s s' -> RelO eq (ex I fuel x s) (ex I fuel (rn_stmt r x) s').
  Proof.
    induction fuel as [|f IHf]; intros x s s' C Hs; cbn [ex]; [exact Logic.I|]. apply ex1_rel; [exact IHf|exact C|exact Hs].
  Qed.

  Lemma bind_params_rel ps : forall args l l', Forall (fun p => covered r (enc_param p)) ps -> Rel l l' ->
    match bind_params ps args l, bind_params (map (rn_param r) ps) args l' with
    | Some m, Some m' => Rel m m'
    | None, None => True
    | _, _ => False
    end.
  Proof.
    induction ps as [|[[[x d] ty] o] ps IHp]; intros [|[v|] args] l l' C H; cbn [bind_params map rn_param]; try exact Logic.I; [exact H| |].
    - inversion C as [|? ? Cp Cr]; subst. apply IHp; [assumption|]. apply upd_rel; [exact H|]. exact (cov_id r x _ Cp).
    - inversion C; subst. apply IHp; assumption.
  Qed.

  Lemma read_outs_rel ps : forall l l', Forall (fun p => covered r (enc_param p)) ps -> Rel l l' ->
    read_outs ps l = read_outs (map (rn_param r) ps) l'.
  Proof.
    induction ps as [|[[[x d] ty] o] ps IHp]; intros l l' C H; cbn [read_outs map rn_param]; [reflexivity|].
    inversion C as [|? ? Cp Cr]; subst. rewrite (IHp l l' Cr H). destruct (String.eqb d "0"); [reflexivity|].
    rewrite (H x (rn_id r x) (cov_id r x _ Cp)). reflexivity.
  Qed.

  Theorem run_rel fuel f args g : covered r (enc_func f) -> run I fuel f args g = run I fuel (rn_func r f) args g.
  Proof.
    intros C. unfold enc_func, enc_block in C. cov.
    match goal with H : covered r (flat_map enc_param _) |- _ => apply cov_flat in H; rename H into Cp end.
    match goal with H : covered r (flat_map enc_stmt _) |- _ => apply cov_flat in H; rename H into Cb end.
    unfold run. cbn [rn_func f_params f_body].
    pose proof (bind_params_rel (f_params f) args (fun _ => None) (fun _ => None) Cp ltac:(intros a b _; reflexivity)) as P.
    destruct (bind_params (f_params f) args (fun _ => None)) as [m|],
             (bind_params (map (rn_param r) (f_params f)) args (fun _ => None)) as [m'|]; try contradiction; [|reflexivity].
    sides (ex_block_rel (ex I fuel) (ex_rel fuel) (f_body f) (m, g) (m', g) Cb ltac:(split; [exact P|reflexivity]))
      as (o & [l1 g1] & o' & [l1' g1'] & -> & -> & <- & [Hl Hg]). cbn in Hl, Hg. subst g1'. rewrite (read_outs_rel (f_params f) l1 l1' Cp Hl). reflexivity.
  Qed.
End Equiv.

Theorem pair_same_behaviour {V G} (I : interp V G) f1 l2 r :
  pair [] 0 (enc_func f1) l2 = Same r ->
  l2 = enc_func (rn_func r f1) /\
  forall fuel args g, run I fuel f1 args g = run I fuel (rn_func r f1) args g.
Proof.
  intros H. destruct (pair_sound _ _ _ _ _ bij_nil H) as (Bj & _ & M & C). split.
  - rewrite enc_func_rn. symmetry. exact M.
  - intros fuel args g. apply run_rel; assumption.
Qed.
