(* ListFacts.v — facts about lists that several parts use and that the standard library of this Coq version lacks. *)
From Coq Require Import List Permutation.
Import ListNotations.

Lemma existsb_eqb_In {A} (eqb : A -> A -> bool) (eqb_eq : forall a b, eqb a b = true <-> a = b) x l :
  existsb (eqb x) l = true <-> In x l.
Proof.
  rewrite existsb_exists. split.
  - intros (y & Hy & E). apply eqb_eq in E. subst. exact Hy.
  - intros H. exists x. split; [exact H | apply eqb_eq; reflexivity].
Qed.

Lemma forallb_existsb_incl {A} (eqb : A -> A -> bool) (eqb_eq : forall a b, eqb a b = true <-> a = b) table ws :
  forallb (fun w => existsb (eqb w) table) ws = true -> incl ws table.
Proof. intros H w Hw. apply (existsb_eqb_In eqb eqb_eq). exact (proj1 (forallb_forall _ ws) H w Hw). Qed.

Lemma forallb_perm {A} (f : A -> bool) l l' : Permutation l l' -> forallb f l = forallb f l'.
Proof.
  induction 1 as [|x l l' P IH|x y l|l l' l'' P1 IH1 P2 IH2]; cbn.
  - reflexivity.
  - rewrite IH. reflexivity.
  - destruct (f x), (f y); reflexivity.
  - congruence.
Qed.

Lemma filter_perm {A} (f : A -> bool) l l' : Permutation l l' -> Permutation (filter f l) (filter f l').
Proof.
  induction 1 as [|x l l' P IH|x y l|l l' l'' P1 IH1 P2 IH2]; cbn.
  - constructor.
  - destruct (f x); [constructor|]; assumption.
  - destruct (f x), (f y); try reflexivity. apply perm_swap.
  - etransitivity; eassumption.
Qed.

Lemma filter_none {A} (p : A -> bool) l : (forall y, In y l -> p y = false) -> filter p l = [].
Proof.
  induction l as [|y l IH]; intros E; [reflexivity|]. cbn. rewrite (E y (or_introl eq_refl)).
  apply IH. intros z Hz. apply E. right. exact Hz.
Qed.

Lemma filter_unique {A} (p : A -> bool) (l : list A) (c : A) :
  NoDup l -> In c l -> p c = true -> (forall d, In d l -> d <> c -> p d = false) -> filter p l = [c].
Proof.
  induction l as [|x l IH]; intros Hnd Hin Hc Hd; [destruct Hin|].
  inversion Hnd as [|? ? Hnot Hnd']; subst. cbn [filter]. destruct Hin as [->|Hin].
  - rewrite Hc. f_equal. apply filter_none. intros y Hy. apply Hd; [right; exact Hy|]. intros ->. contradiction.
  - assert (x <> c) by (intros ->; contradiction).
    rewrite (Hd x (or_introl eq_refl) H). apply IH; try assumption.
    intros d Hdl Hne. apply Hd; [right; exact Hdl | exact Hne].
Qed.

Lemma nodup_map_filter {A B} (f : A -> B) (p : A -> bool) l : NoDup (map f l) -> NoDup (map f (filter p l)).
Proof.
  induction l as [|x l IH]; intros H; [constructor|]. cbn [map] in H. inversion H as [|? ? Hnot Hnd]; subst.
  cbn [filter]. destruct (p x); [|exact (IH Hnd)]. cbn [map]. constructor; [|exact (IH Hnd)].
  intros Hin. apply Hnot. apply in_map_iff in Hin as (y & E & Hy). apply filter_In in Hy as [Hy _].
  rewrite <- E. apply in_map. exact Hy.
Qed.

Lemma map_injective_on {A B} (f : A -> B) l x y : NoDup (map f l) -> In x l -> In y l -> f x = f y -> x = y.
Proof.
  induction l as [|a r IH]; intros Hnd Hx Hy E; [destruct Hx|].
  cbn [map] in Hnd. inversion Hnd as [|? ? Hnotin Hnd']; subst.
  destruct Hx as [->|Hx], Hy as [->|Hy]; try reflexivity.
  - exfalso. apply Hnotin. rewrite E. apply in_map, Hy.
  - exfalso. apply Hnotin. rewrite <- E. apply in_map, Hx.
  - apply IH; assumption.
Qed.

Lemma nodup_app_intro {A} (a b : list A) :
  NoDup a -> NoDup b -> (forall x, In x a -> ~ In x b) -> NoDup (a ++ b).
Proof.
  induction a as [|x a IH]; intros Ha Hb H; [exact Hb|]. inversion Ha; subst. cbn. constructor.
  - intros Hin. apply in_app_iff in Hin as [Hin|Hin]; [contradiction | apply (H x (or_introl eq_refl) Hin)].
  - apply IH; [assumption | assumption | intros y Hy; apply H; right; exact Hy].
Qed.

Lemma app_neq_nil {A} (l1 l2 : list A) : l1 ++ l2 <> [] <-> l1 <> [] \/ l2 <> [].
Proof. destruct l1; cbn; [intuition congruence|]. split; [left; congruence|congruence]. Qed.

Lemma skipn_app_length_eq {A} (a b : list A) : skipn (length a) (a ++ b) = b.
Proof. induction a as [|x r IH]; [reflexivity | exact IH]. Qed.

Lemma forall2_nth {A B} (R : A -> B -> Prop) l l' i x y :
  Forall2 R l l' -> nth_error l i = Some x -> nth_error l' i = Some y -> R x y.
Proof.
  intros H. revert i. induction H as [|a b l l' Hab Hf IH]; intros [|i] Hx Hy; cbn in *; try discriminate.
  - inversion Hx; inversion Hy; subst. exact Hab.
  - eapply IH; eassumption.
Qed.

Lemma forall2_and {A B} (R S : A -> B -> Prop) l l' :
  Forall2 R l l' -> Forall2 S l l' -> Forall2 (fun x y => R x y /\ S x y) l l'.
Proof. induction 1; intros H2; inversion H2; subst; constructor; auto. Qed.

Lemma forall2_flip {A B} (R : A -> B -> Prop) l l' : Forall2 R l l' -> Forall2 (fun y x => R x y) l' l.
Proof. induction 1; constructor; auto. Qed.

Lemma forall2_impl {A B} (R S : A -> B -> Prop) l l' :
  (forall x y, R x y -> S x y) -> Forall2 R l l' -> Forall2 S l l'.
Proof. intros H. induction 1; constructor; auto. Qed.

Lemma forall2_trans {A B C} (R : A -> B -> Prop) (S : B -> C -> Prop) (T : A -> C -> Prop) l1 l2 l3 :
  (forall x y z, R x y -> S y z -> T x z) -> Forall2 R l1 l2 -> Forall2 S l2 l3 -> Forall2 T l1 l3.
Proof.
  intros H F. revert l3. induction F; intros l3 G; inversion G; subst; constructor; eauto.
Qed.
