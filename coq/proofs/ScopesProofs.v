(* ScopesProofs.v — a path emitted by the exporters is found again, from the place it was emitted for, as the symbol it
   was emitted for. *)
From Coq Require Import List Bool String Lia.
From RV Require Import Scopes.
Import ListNotations.

Section P.
Variable is_ns : list string -> bool.
Variable has : list string -> string -> bool.
Variable inner : string -> bool.
Variable live : list string -> bool.
(* a namespace from which a path of namespaces leads to a declaration is written into the output *)
Hypothesis live_complete : forall n s r t' leaf', Scopes.walk is_ns (n :: s) r = Some t' -> has t' leaf' = true -> live (n :: s) = true.

Notation walk := (walk is_ns).
Notation find_in := (find_in is_ns has).
Notation lookup := (lookup is_ns has).
Notation lookup_from := (lookup_from is_ns has).
Notation lookup_abs := (lookup_abs is_ns has).
Notation hidden_ns := (hidden_ns is_ns has live).
Notation hidden := (hidden is_ns has inner live).
Notation emit := (emit is_ns has inner live).
Notation resolve := (resolve is_ns has).

(* every namespace on the way from the root to t exists *)
Fixpoint ns_ok (t : list string) : bool :=
  match t with
  | [] => true
  | _ :: p => is_ns t && ns_ok p
  end.

Lemma walk_app s a b : walk s (a ++ b) = match walk s a with Some m => walk m b | None => None end.
Proof.
  revert s; induction a as [|n a IH]; intros s; cbn [walk app]; [reflexivity|].
  destruct (is_ns (n :: s)); [apply IH | reflexivity].
Qed.

Lemma walk_rev t : ns_ok t = true -> walk [] (rev t) = Some t.
Proof.
  induction t as [|n p IH]; intros H; cbn [rev]; [reflexivity|].
  cbn [ns_ok] in H. apply andb_true_iff in H as [H1 H2].
  rewrite walk_app, (IH H2). cbn [walk]. rewrite H1. reflexivity.
Qed.

Lemma find_root t leaf : ns_ok t = true -> has t leaf = true -> find_in [] (rev t) leaf = Some t.
Proof. intros H1 H2. unfold Scopes.find_in. rewrite (walk_rev _ H1), H2. reflexivity. Qed.

(* a scope that does not declare the first name of a path does not find the path: the name is not a declaration of
   the scope, and a namespace of that name that led to a declaration would be written out, hence declared *)
Lemma find_in_undeclared s dirs leaf : declares is_ns has live s (hd leaf dirs) = false -> find_in s dirs leaf = None.
Proof.
  unfold declares, Scopes.find_in. intros Hd. apply orb_false_iff in Hd as [Hns Hhas].
  destruct dirs as [|n r]; cbn [hd Scopes.walk] in *; [rewrite Hhas; reflexivity|].
  destruct (is_ns (n :: s)); [|reflexivity]. destruct (walk (n :: s) r) as [t'|] eqn:W; [|reflexivity].
  destruct (has t' leaf) eqn:Ht; [|reflexivity]. rewrite (live_complete n s r t' leaf W Ht) in Hns. discriminate.
Qed.

(* nothing between the use site and the root declares the first name of the path: every scope on the way fails *)
Lemma lookup_not_hidden u t leaf :
  ns_ok t = true -> has t leaf = true ->
  hidden_ns u (hd leaf (rev t)) = false ->
  lookup u (rev t) leaf = Some t.
Proof.
  intros H1 H2. induction u as [|x p IH]; intros Hh; cbn [Scopes.lookup].
  - rewrite (find_root _ _ H1 H2). reflexivity.
  - cbn [Scopes.hidden_ns] in Hh. apply orb_false_iff in Hh as [Hd Hp].
    rewrite (find_in_undeclared _ _ _ Hd). apply IH. exact Hp.
Qed.

Lemma frames_skip frames u dirs leaf :
  Forall (fun f : string -> bool => forall n, f n = true -> inner n = true) frames ->
  inner (hd leaf dirs) = false ->
  lookup_from frames u dirs leaf = option_map Declared (lookup u dirs leaf).
Proof.
  intros F Hi. induction F as [|f fs Hf F IH]; cbn [Scopes.lookup_from]; [reflexivity|].
  destruct dirs as [|n r]; [|exact IH].
  cbn [hd] in Hi. destruct (f leaf) eqn:E; [|exact IH].
  apply Hf in E. congruence.
Qed.

Theorem emitted_path_resolves frames u t leaf :
  ns_ok t = true -> has t leaf = true ->
  Forall (fun f : string -> bool => forall n, f n = true -> inner n = true) frames ->
  resolve frames u (emit u t leaf) = Some (Declared t).
Proof.
  intros H1 H2 F. unfold Scopes.resolve, Scopes.emit. cbn [p_abs p_dirs p_leaf].
  destruct (hidden u (hd leaf (rev t))) eqn:Eh.
  - unfold Scopes.lookup_abs. rewrite (find_root _ _ H1 H2). reflexivity.
  - unfold Scopes.hidden in Eh. apply orb_false_iff in Eh as [Ei En].
    rewrite (frames_skip _ _ _ _ F Ei). rewrite (lookup_not_hidden _ _ _ H1 H2 En). reflexivity.
Qed.

Lemma absolute_is_context_free frames frames' u u' dirs leaf :
  resolve frames u {| p_abs := true; p_dirs := dirs; p_leaf := leaf |} =
  resolve frames' u' {| p_abs := true; p_dirs := dirs; p_leaf := leaf |}.
Proof. reflexivity. Qed.
End P.
