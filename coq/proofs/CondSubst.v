(* Conditions with macros and `defined`: macro substitution followed by the condition parser gives the truth value of
   the condition in which the identifiers are replaced by what they stand for (`resolve`), if it meets `dwf`. *)
From Coq Require Import List NArith Bool String.
From RV Require Import Cond CondParserProofs.
Import ListNotations.
Local Open Scope list_scope.

Inductive dexpr :=
| DNum (n : N) | DTrue | DFalse
| DId (x : string)
| DDefined (x : string) (paren : bool)
| DNot (e : dexpr)
| DBin (op : binop) (l r : dexpr).

Fixpoint resolve (e : env) (d : dexpr) : cexpr :=
  match d with
  | DNum n => ENum n
  | DTrue => ETrue
  | DFalse => EFalse
  | DId x => match lookup e x with Some (Some v) => ENum v | _ => EId x end
  | DDefined x _ => ENum (b2n (defined e x))
  | DNot a => ENot (resolve e a)
  | DBin op l r => EBin op (resolve e l) (resolve e r)
  end.

Definition drank (d : dexpr) : nat := match d with DBin op _ _ => rank op | _ => 0 end.

(* as written: minimal parentheses, as `raw` *)
Fixpoint rawd (d : dexpr) : list ctok :=
  let prd := fun (j : nat) (x : dexpr) =>
    if Nat.leb (drank x) j then rawd x else KLP :: rawd x ++ [KRP] in
  match d with
  | DNum n => [KNum n]
  | DTrue => [KTrue]
  | DFalse => [KFalse]
  | DId x => [KId x]
  | DDefined x false => [KId "defined"; KId x]
  | DDefined x true => [KId "defined"; KLP; KId x; KRP]
  | DNot x => KNot :: prd 0%nat x
  | DBin op l r => prd (rank op) l ++ optok op :: prd (Nat.pred (rank op)) r
  end.

(* identifiers used as values are not the word `defined` and not macros with an empty replacement list *)
Fixpoint dwf (e : env) (d : dexpr) : Prop :=
  match d with
  | DId x => String.eqb x "defined" = false /\ lookup e x <> Some None
  | DNot a => dwf e a
  | DBin _ l r => dwf e l /\ dwf e r
  | _ => True
  end.

Lemma erank_resolve e d : erank (resolve e d) = drank d.
Proof. destruct d; cbn [resolve erank drank]; try reflexivity. destruct (lookup e x) as [[v|]|]; reflexivity. Qed.

Lemma subst_cons_plain e t r :
  (forall x, t <> KId x) -> subst e (t :: r) = option_map (cons t) (subst e r).
Proof. intros H. destruct t; try reflexivity. exfalso. apply (H s). reflexivity. Qed.

Lemma optok_not_id op x : optok op <> KId x.
Proof. destruct op; discriminate. Qed.

(* substitution turns the segment a into a', whatever follows *)
Definition maps (e : env) (a a' : list ctok) : Prop :=
  forall rest, subst e (a ++ rest) = option_map (app a') (subst e rest).

Lemma maps_app e a a' b b' : maps e a a' -> maps e b b' -> maps e (a ++ b) (a' ++ b').
Proof.
  intros Ha Hb rest. rewrite <- app_assoc, Ha, Hb. destruct (subst e rest); cbn; [rewrite app_assoc|]; reflexivity.
Qed.

Lemma maps_tok e t : (forall x, t <> KId x) -> maps e [t] [t].
Proof. intros H rest. cbn [app]. rewrite subst_cons_plain by exact H. destruct (subst e rest); reflexivity. Qed.

Lemma maps_paren e (b : bool) a a' :
  maps e a a' -> maps e (if b then a else KLP :: a ++ [KRP]) (if b then a' else KLP :: a' ++ [KRP]).
Proof.
  intros H. destruct b; [exact H|].
  apply (maps_app e [KLP] [KLP]); [|apply maps_app; [exact H|]]; apply maps_tok; discriminate.
Qed.

Lemma subst_rawd e : forall d, dwf e d -> maps e (rawd d) (raw (resolve e d)).
Proof.
  induction d as [n| | |x|x p|a IH|op l IHl r IHr]; intros W; cbn [rawd resolve raw].
  1-3: apply maps_tok; discriminate.
  - destruct W as [Wd Wl]. intros rest. cbn [app subst]. rewrite Wd.
    destruct (lookup e x) as [[v|]|]; cbn [raw]; try (destruct (subst e rest); reflexivity). congruence.
  - intros rest. destruct p; cbn [app subst]; rewrite String.eqb_refl; destruct (subst e rest); reflexivity.
  - rewrite erank_resolve. apply (maps_app e [KNot] [KNot]); [apply maps_tok; discriminate|].
    apply maps_paren, IH, W.
  - destruct W as [Wl Wr]. rewrite !erank_resolve.
    apply maps_app; [apply maps_paren, IHl, Wl|].
    apply (maps_app e [_] [_]); [apply maps_tok; intros x; apply optok_not_id | apply maps_paren, IHr, Wr].
Qed.

Theorem eval_cond_correct e d : dwf e d ->
  eval_cond e (rawd d) = inl (negb (N.eqb (ceval (resolve e d)) 0)).
Proof.
  intros W. unfold eval_cond.
  pose proof (subst_rawd e d W []) as H. rewrite app_nil_r in H. rewrite H. cbn [subst option_map].
  rewrite app_nil_r. rewrite cond_parse_correct. reflexivity.
Qed.
