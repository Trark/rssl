(* MacroMany.v — any number of uses of object-like macros in one token list: each is replaced by its replacement list,
   in order, and the text between them stays (replacement lists that name no macro). *)
From Coq Require Import List Bool String Arith Lia.
From RV Require Import Macro MacroSubst MacroMany2.
Import ListNotations.
Local Open Scope list_scope.

Section Many.
Variable paste : mtok -> mtok -> option mtok.
Variable defs : list macro.
Notation plain := (plain defs).

(* (text before the use, index of the macro, the macro) *)
Definition use := (list mtok * nat * macro)%type.
Fixpoint flat_in (us : list use) : list mtok :=
  match us with [] => [] | (p, _, m) :: r => p ++ MId (m_name m) :: flat_in r end.
Fixpoint flat_out (us : list use) : list mtok :=
  match us with [] => [] | (p, _, m) :: r => p ++ m_body m ++ flat_out r end.

Definition use_ok (dis : list bool) (u : use) : Prop :=
  let '(p, mi, m) := u in
  nth_error defs mi = Some m /\ m_fn m = false /\ nth mi dis false = false /\
  (forall j m', j < mi -> nth_error defs j = Some m' -> String.eqb (m_name m) (m_name m') = false) /\
  plain p /\ plain (m_body m).

Lemma firstn_app_le {A} n (a b : list A) : n <= List.length a -> firstn n (a ++ b) = firstn n a.
Proof. intros H. rewrite firstn_app. replace (n - List.length a) with 0 by lia. apply app_nil_r. Qed.

Definition as_muse (u : use) : muse := let '(p, mi, m) := u in UObj p mi m.

Lemma flat_in_min us : flat_in us = min (map as_muse us).
Proof. induction us as [|[[p mi] m] r IH]; [reflexivity|]. cbn [flat_in map as_muse min]. rewrite IH. reflexivity. Qed.

Lemma flat_out_mout us : flat_out us = mout (map as_muse us).
Proof. induction us as [|[[p mi] m] r IH]; [reflexivity|]. cbn [flat_out map as_muse mout]. rewrite IH. reflexivity. Qed.

Theorem every_object_use_is_replaced us post :
  Forall (use_ok (map (fun _ => false) defs)) us -> plain post ->
  apply_macros paste defs (flat_in us ++ post) = XOk (flat_out us ++ post).
Proof.
  intros Hok Hpost. rewrite flat_in_min, flat_out_mout. apply every_use_is_replaced; [|exact Hpost].
  rewrite Forall_map. revert Hok. apply Forall_impl. intros [[p mi] m] H. exact H.
Qed.

End Many.
