(* MacroIrrelevant.v — the replacement lists of macros whose names the program never mentions (and cannot paste) do
   not influence the expansion: two macro tables that differ only in the bodies / parameter counts of such macros give
   the same result for every token list.  Instantiated for RSSL_TARGET_HLSL / RSSL_TARGET_MSL in props/C18.v. *)
From Coq Require Import List Bool String Arith Lia.
From RV Require Import Macro MacroParts MacroProofs.
Import ListNotations.
Local Open Scope list_scope.

Section Irr.
Variable T : string -> bool.                       (* the names whose definitions differ *)
Variable paste : mtok -> mtok -> option mtok.

Definition cleanb (t : mtok) : bool := match t with MId x => negb (T x) | _ => true end.
Definition clean (l : list mtok) : Prop := Forall (fun t => cleanb t = true) l.

Hypothesis Hpaste : forall a b t, paste a b = Some t -> cleanb t = true.

Definition same_shape (a b : macro) : Prop :=
  m_name a = m_name b /\ m_fn a = m_fn b /\ (T (m_name a) = true \/ (a = b /\ clean (m_body a))).
Definition rel (defs defs' : list macro) : Prop := Forall2 same_shape defs defs'.

Lemma clean_app a b : clean a -> clean b -> clean (a ++ b).
Proof. intros. apply Forall_app. split; assumption. Qed.

Lemma pick_rel dis : forall defs defs', rel defs defs' ->
  forall mi x after i next lf, pick_macro defs dis mi x after i next lf = pick_macro defs' dis mi x after i next lf.
Proof.
  induction 1 as [|a b l l' Hs F IH]; intros mi x after i next lf; [reflexivity|].
  cbn [pick_macro]. destruct Hs as (Hn & Hf & _). rewrite <- Hn, <- Hf. rewrite !IH. reflexivity.
Qed.

Lemma find_from_rel defs defs' dis next lf : rel defs defs' ->
  forall l before i, find_from defs dis before l i next lf = find_from defs' dis before l i next lf.
Proof.
  intros R. induction l as [|t r IH]; intros before i; [reflexivity|].
  cbn [find_from]. destruct t; try apply IH; try reflexivity.
  rewrite (pick_rel dis defs defs' R). destruct (pick_macro defs' dis 0 s r i next lf); [reflexivity | apply IH].
Qed.

Lemma rel_nth defs defs' mi m : rel defs defs' -> nth_error defs mi = Some m ->
  exists m', nth_error defs' mi = Some m' /\ same_shape m m'.
Proof.
  intros R. revert mi. induction R as [|a b l l' Hs F IH]; intros [|mi] H; cbn in *; try discriminate.
  - inversion H; subst. exists b. split; [reflexivity | exact Hs].
  - apply IH, H.
Qed.

Definition clean_res (r : xres) : Prop := match r with XOk out => clean out | _ => True end.
Definition agree (r r' : xres) : Prop := r = r' /\ clean_res r.

Lemma agree_refl r : clean_res r -> agree r r.
Proof. intros H. split; [reflexivity | exact H]. Qed.

Lemma step_agree self self' inner inner' toks mi m pos lf rest args :
  (forall t n e l, clean t -> agree (self t n e l) (self' t n e l)) ->
  (forall out, clean out -> agree (inner mi out) (inner' mi out)) ->
  clean toks -> clean (m_body m) -> clean rest -> Forall clean args ->
  agree (step_body self inner mi m toks pos lf rest args) (step_body self' inner' mi m toks pos lf rest args).
Proof.
  intros Hself Hinner Hc Hbody Hr Ha. unfold step_body. rewrite Forall_forall in Ha.
  rewrite <- (map_ext_in (fun a => self a 0 0 None) (fun a => self' a 0 0 None) args)
    by (intros a Hin; apply Hself, Ha, Hin).
  assert (Hall : Forall clean_res (map (fun a => self a 0 0 None) args)).
  { apply Forall_map, Forall_forall. intros a Hin. apply (Hself a 0 0 None), Ha, Hin. }
  apply all_ok_spec with (acc := []) in Hall; [|constructor].
  destruct (all_ok (map (fun a => self a 0 0 None) args) []) as [e|args']; [apply agree_refl, Hall|].
  destruct (Hinner (subst (m_body m) args') (Forall_subst _ _ _ _ (fun t H _ => H) Hbody Hall)) as [Ei Hci]. rewrite <- Ei.
  destruct (inner mi (subst (m_body m) args')) as [out| | |]; try (apply agree_refl; exact Logic.I).
  apply Hself. apply clean_app; [apply Forall_firstn, Hc | apply clean_app; assumption].
Qed.

Lemma loop_step_agree defs defs' self self' inner inner' dis toks next early lf :
  rel defs defs' -> clean toks ->
  (forall t n e l, clean t -> agree (self t n e l) (self' t n e l)) ->
  (forall mi out, clean out -> agree (inner mi out) (inner' mi out)) ->
  agree (loop_step paste defs self inner dis toks next early lf) (loop_step paste defs' self' inner' dis toks next early lf).
Proof.
  intros R Hc Hself Hinner. unfold loop_step.
  destruct (Nat.leb (List.length toks) next); [apply agree_refl, Hc|].
  unfold find. rewrite <- (find_from_rel defs defs' dis next lf R).
  pose proof (find_from_spec defs dis next lf (skipn early toks) (rev (firstn early toks)) early) as Hspec.
  destruct (find_from defs dis (rev (firstn early toks)) (skipn early toks) early next lf) as [mi pos|lp rp| |e|];
    try (apply agree_refl; first [exact Hc | exact Logic.I]).
  - (* invocation *)
    destruct Hspec as (mid & x & tail & m & Hl & Hpos & _ & Hm & Hu). apply usable_true in Hu as (_ & Hx & _).
    destruct (rel_nth defs defs' mi m R Hm) as (m' & Hm' & Hs). rewrite Hm, Hm'.
    (* the invoked name occurs in the token list, so it is not one of the differing macros *)
    assert (Hin : In (MId x) toks).
    { rewrite <- (firstn_skipn early toks). apply in_or_app. right. rewrite Hl. apply in_or_app. right. left. reflexivity. }
    assert (Hcx : T x = false).
    { unfold clean in Hc. rewrite Forall_forall in Hc. specialize (Hc _ Hin). cbn in Hc. destruct (T x); [discriminate | reflexivity]. }
    destruct Hs as (_ & _ & [Ht|[<- Hbody]]); [rewrite Hx in Ht; congruence|].
    assert (Hafter : clean (skipn (S pos) toks)) by (apply Forall_skipn, Hc).
    assert (Hstep : forall lf' rest args, clean rest -> Forall clean args ->
      agree (step_body self inner mi m toks pos lf' rest args) (step_body self' inner' mi m toks pos lf' rest args)).
    { intros lf' rest args. apply step_agree; try assumption. apply Hinner. }
    destruct (m_fn m).
    + destruct (split_args (skipn (S pos) toks)) as [rest args|e] eqn:Hsa; [|apply agree_refl; exact Logic.I].
      destruct (Forall_split_args _ _ _ _ Hsa Hafter) as [Hr Ha].
      destruct (Nat.eqb (m_params m) 0).
      * destruct args as [|a0 [|a1 ar]]; try (apply agree_refl; exact Logic.I).
        destruct (forallb is_ws a0); [|apply agree_refl; exact Logic.I].
        apply (Hstep (Some mi) rest []); [exact Hr | constructor].
      * destruct (Nat.eqb (List.length args) (m_params m)); [|apply agree_refl; exact Logic.I].
        apply (Hstep (Some mi) rest args); assumption.
    + apply (Hstep None _ []); [exact Hafter | constructor].
  - (* ## *)
    destruct (nth_error toks lp) as [a|] eqn:Ha; [|apply agree_refl; exact Logic.I].
    destruct (nth_error toks rp) as [b|] eqn:Hb; [|apply agree_refl; exact Logic.I].
    destruct (paste a b) as [t|] eqn:Hp; [|apply agree_refl; exact Logic.I].
    apply Hself. apply clean_app; [apply Forall_firstn, Hc|]. constructor; [apply (Hpaste _ _ _ Hp) | apply Forall_skipn, Hc].
Qed.

Theorem expand_agree defs defs' : rel defs defs' ->
  forall d dis n toks next early lf, clean toks ->
  agree (expand paste defs d dis n toks next early lf) (expand paste defs' d dis n toks next early lf).
Proof.
  intros R. induction d as [|d IHd]; intros dis; [intros; apply agree_refl; exact Logic.I|].
  induction n as [|n IHn]; intros toks next early lf Hc; [apply agree_refl; exact Logic.I|].
  rewrite !expand_eq. apply loop_step_agree; try assumption.
  intros mi out Ho. apply IHd. exact Ho.
Qed.

End Irr.

Section Irr2.
Variable T : string -> bool.
Variable paste : mtok -> mtok -> option mtok.
Hypothesis Hpaste : forall a b t, paste a b = Some t -> cleanb T t = true.

Lemma rel_length defs defs' : rel T defs defs' -> List.length defs = List.length defs'.
Proof. induction 1; cbn; congruence. Qed.

Theorem apply_macros_agree defs defs' toks :
  rel T defs defs' -> clean T toks ->
  apply_macros paste defs toks = apply_macros paste defs' toks /\
  match apply_macros paste defs toks with XOk out => clean T out | _ => True end.
Proof.
  intros R Hc. unfold apply_macros. rewrite <- (rel_length _ _ R).
  replace (map (fun _ : macro => false) defs') with (map (fun _ : macro => false) defs).
  - apply (expand_agree T paste Hpaste defs defs' R). exact Hc.
  - clear -R. induction R; cbn; congruence.
Qed.

Variable files : string -> option (list item).

Definition item_clean (it : item) : Prop :=
  match it with
  | IText ts => clean T ts
  | IDefine cmd => match parse_define cmd with Some m => T (m_name m) = false /\ clean T (m_body m) | None => True end
  | _ => True
  end.

Hypothesis Hfiles : forall f body, files f = Some body -> Forall item_clean body.

Lemma rel_remove x defs defs' : rel T defs defs' -> rel T (remove_macro x defs) (remove_macro x defs').
Proof.
  induction 1 as [|a b l l' Hs F IH]; cbn [remove_macro filter]; [constructor|].
  destruct Hs as (Hn & Hr). rewrite <- Hn. destruct (negb (String.eqb (m_name a) x)); [constructor; [split; assumption | exact IH] | exact IH].
Qed.

Definition st_rel (s s' : pstate) : Prop :=
  rel T (ps_macros s) (ps_macros s') /\ ps_once s = ps_once s' /\ ps_out s = ps_out s' /\ clean T (ps_out s).

Lemma item_step_agree self it st st' : st_rel st st' -> item_clean it ->
  match item_step paste self it st, item_step paste self it st' with
  | inl r, inl r' => st_rel r r'
  | inr e, inr e' => e = e'
  | _, _ => False
  end.
Proof.
  intros (Hm & Ho & Hout & Hcl) Hit. destruct it as [ts|cmd|x|f|]; cbn [item_step].
  - destruct (apply_macros_agree _ _ ts Hm Hit) as [E Hco]. rewrite <- E.
    destruct (apply_macros paste (ps_macros st) ts) as [out| | |]; try reflexivity.
    repeat split; cbn [ps_macros ps_once ps_out]; try assumption; try congruence. apply clean_app; assumption.
  - cbn [item_clean] in Hit. destruct (parse_define cmd) as [m|]; [|reflexivity].
    repeat split; cbn [ps_macros ps_once ps_out]; try assumption.
    apply Forall2_app; [apply rel_remove, Hm|]. constructor; [|constructor].
    split; [reflexivity|]. split; [reflexivity|]. right. split; [reflexivity | exact (proj2 Hit)].
  - repeat split; cbn [ps_macros ps_once ps_out]; try assumption. apply rel_remove, Hm.
  - repeat split; assumption.
  - repeat split; cbn [ps_macros ps_once ps_out]; try assumption. congruence.
Qed.

Theorem run_agree : forall fuel self its st st',
  st_rel st st' -> Forall item_clean its ->
  match run paste files fuel self its st, run paste files fuel self its st' with
  | inl r, inl r' => st_rel r r'
  | inr e, inr e' => e = e'
  | _, _ => False
  end.
Proof.
  induction fuel as [|fuel IH]; intros self its st st' Hs Hc; [reflexivity|].
  destruct its as [|it rest]; [exact Hs|]. inversion Hc as [|? ? Hit Hrest]; subst.
  destruct (item_cases it) as [[f ->]|Hi].
  - rewrite !run_include. destruct (files f) as [body|] eqn:Hf; [|reflexivity]. rewrite <- (proj1 (proj2 Hs)).
    assert (Hb : Forall item_clean (if existsb (String.eqb f) (ps_once st) then [] else body)).
    { destruct (existsb (String.eqb f) (ps_once st)); [constructor | apply (Hfiles f body Hf)]. }
    pose proof (IH f _ st st' Hs Hb) as H1.
    destruct (run paste files fuel f _ st) as [r|e], (run paste files fuel f _ st') as [r'|e']; try contradiction; try exact H1.
    apply IH; assumption.
  - rewrite !run_step by exact Hi. pose proof (item_step_agree self it st st' Hs Hit) as H1.
    destruct (item_step paste self it st) as [r|e], (item_step paste self it st') as [r'|e']; try contradiction; try exact H1.
    apply IH; assumption.
Qed.

End Irr2.
