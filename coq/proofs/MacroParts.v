(* MacroParts.v — what the functions that one iteration of the scan (Macro.loop_step) is made of do, each on its own:
   trimming and split_args (lengths, and that they keep what holds of every token), pick_macro (through `usable`),
   find (through `find_post`), all_ok, and the iteration once the macro and its arguments are known (`step_body`). *)
From Coq Require Import List Bool String Arith Lia.
From RV Require Import ListFacts Macro.
Import ListNotations.
Local Open Scope list_scope.

Lemma Forall_firstn {A} (P : A -> Prop) n l : Forall P l -> Forall P (firstn n l).
Proof. intros H. rewrite <- (firstn_skipn n l) in H. apply Forall_app in H. apply H. Qed.
Lemma Forall_skipn {A} (P : A -> Prop) n l : Forall P l -> Forall P (skipn n l).
Proof. intros H. rewrite <- (firstn_skipn n l) in H. apply Forall_app in H. apply H. Qed.

Lemma Forall_firstn_le {A} (P : A -> Prop) n m l : n <= m -> Forall P (firstn m l) -> Forall P (firstn n l).
Proof. intros Hle H. rewrite <- (Nat.min_l n m), <- firstn_firstn by exact Hle. apply Forall_firstn, H. Qed.

Lemma firstn_app_length_eq {A} (a b : list A) : firstn (List.length a) (a ++ b) = a.
Proof. induction a as [|x a IH]; cbn; [destruct b; reflexivity | f_equal; exact IH]. Qed.

Lemma split_at {A} (l a : list A) x t p :
  l = a ++ x :: t -> List.length a = p -> skipn (S p) l = t /\ firstn p l = a /\ List.length l = p + 1 + List.length t.
Proof.
  intros -> <-. repeat split.
  - replace (a ++ x :: t) with ((a ++ [x]) ++ t) by (rewrite <- app_assoc; reflexivity).
    replace (S (List.length a)) with (List.length (a ++ [x])) by (rewrite app_length; cbn; lia).
    apply skipn_app_length_eq.
  - apply firstn_app_length_eq.
  - rewrite app_length. cbn [List.length]. lia.
Qed.

Lemma trim_start_spec l : exists pre, l = pre ++ trim_start l.
Proof.
  induction l as [|t r IH]; [exists []; reflexivity|]. cbn [trim_start].
  destruct (is_ws_inline t); [|exists []; reflexivity]. destruct IH as [pre H]. exists (t :: pre). cbn. f_equal. exact H.
Qed.

Lemma trim_start_all_spec l : exists pre, l = pre ++ trim_start_all l.
Proof.
  induction l as [|t r IH]; [exists []; reflexivity|]. cbn [trim_start_all].
  destruct (is_ws t); [|exists []; reflexivity]. destruct IH as [pre H]. exists (t :: pre). cbn. f_equal. exact H.
Qed.

Lemma trim_start_len l : List.length (trim_start l) <= List.length l.
Proof. destruct (trim_start_spec l) as [pre H]. apply (f_equal (@List.length _)) in H. rewrite app_length in H. lia. Qed.

Lemma trim_len l : List.length (trim l) <= List.length l.
Proof.
  unfold trim, trim_end. rewrite rev_length. etransitivity; [apply trim_start_len|]. rewrite rev_length. apply trim_start_len.
Qed.

Lemma split_go_spec : forall l cur depth acc rest args,
  split_args_go l cur depth acc = Some (rest, args) ->
  List.length rest < List.length l /\
  forall a, In a args -> In a acc \/ List.length a <= List.length l + List.length cur.
Proof.
  induction l as [|t r IH]; intros cur depth acc rest args H; [discriminate|].
  assert (Hgen : forall cur' depth', split_args_go r cur' depth' acc = Some (rest, args) ->
                   List.length cur' <= S (List.length cur) ->
                   List.length rest < List.length (t :: r) /\
                   forall a, In a args -> In a acc \/ List.length a <= List.length (t :: r) + List.length cur).
  { intros cur' depth' H' Hc. destruct (IH _ _ _ _ _ H') as [H1 H2]. split; [cbn; lia|].
    intros a Ha. destruct (H2 a Ha) as [Hin|Hl]; [left; exact Hin | right; cbn; lia]. }
  destruct t; cbn [split_args_go] in H; try (apply (Hgen _ _ H), le_n).
  - (* MRP *)
    destruct depth as [|d'].
    + inversion H; subst rest args. split; [cbn; lia|].
      intros a Ha. apply in_app_or in Ha. destruct Ha as [Ha|[<-|[]]]; [left; rewrite in_rev; exact Ha|].
      right. etransitivity; [apply trim_len|]. rewrite rev_length. lia.
    + apply (Hgen _ _ H), le_n.
  - (* MComma *)
    destruct (Nat.eqb depth 0).
    + destruct (IH _ _ _ _ _ H) as [H1 H2]. split; [cbn; lia|].
      intros a Ha. destruct (H2 a Ha) as [[<-|Hin]|Hl]; [ | left; exact Hin | right; cbn in *; lia].
      right. etransitivity; [apply trim_len|]. rewrite rev_length. lia.
    + apply (Hgen _ _ H), le_n.
Qed.

Lemma first_non_ws_inline_bound l k : k <= first_non_ws_inline l k <= k + List.length l.
Proof.
  revert k. induction l as [|t r IH]; intros k; cbn [first_non_ws_inline List.length]; [lia|].
  destruct (is_ws t); [|lia]. specialize (IH (S k)). lia.
Qed.

Lemma trim_start_all_fnwi l k t :
  nth_error l (first_non_ws_inline l k - k) = Some t -> is_ws t = false ->
  trim_start_all l = t :: skipn (S (first_non_ws_inline l k - k)) l.
Proof.
  revert k. induction l as [|u r IH]; intros k H Ht; cbn [first_non_ws_inline] in *.
  - destruct (k - k); discriminate.
  - cbn [trim_start_all]. destruct (is_ws u) eqn:Hu.
    + pose proof (first_non_ws_inline_bound r (S k)) as Hb.
      replace (first_non_ws_inline r (S k) - k) with (S (first_non_ws_inline r (S k) - S k)) in * by lia.
      cbn [nth_error skipn] in *. apply (IH (S k)); assumption.
    + replace (k - k) with 0 in * by lia. cbn in H. inversion H; subst u. reflexivity.
Qed.

(* an invocation whose parenthesis stands at position `first_non_ws_inline after k`, `after` beginning at k: the rest
   and every argument split_args returns, counted from the parenthesis, end before `after` does *)
Lemma split_args_bound after k rest args :
  nth_error after (first_non_ws_inline after k - k) = Some MLP ->
  split_args after = SOk rest args ->
  first_non_ws_inline after k + List.length rest < k + List.length after /\
  forall a, In a args -> first_non_ws_inline after k + List.length a < k + List.length after.
Proof.
  intros Hn Hs. unfold split_args in Hs. rewrite (trim_start_all_fnwi after k MLP Hn eq_refl) in Hs.
  destruct (split_args_go _ [] 0 []) as [[r a]|] eqn:Hg; [|discriminate]. inversion Hs; subst r a.
  destruct (split_go_spec _ _ _ _ _ _ Hg) as [H1 H2]. rewrite skipn_length in H1.
  pose proof (first_non_ws_inline_bound after k) as Hk.
  assert (Hlp : first_non_ws_inline after k - k < List.length after) by (apply nth_error_Some; congruence).
  split; [lia|]. intros a Ha. destruct (H2 a Ha) as [[]|Hl]. rewrite skipn_length in Hl. cbn [List.length] in Hl. lia.
Qed.

Section Closure.
Variable P : mtok -> Prop.

Lemma Forall_trim_start l : Forall P l -> Forall P (trim_start l).
Proof. intros H. destruct (trim_start_spec l) as [pre E]. rewrite E in H. apply Forall_app in H. apply H. Qed.

Lemma Forall_trim l : Forall P l -> Forall P (trim l).
Proof. intros H. unfold trim, trim_end. apply Forall_rev, Forall_trim_start, Forall_rev, Forall_trim_start, H. Qed.

Lemma Forall_split_go : forall l cur depth acc rest args,
  split_args_go l cur depth acc = Some (rest, args) -> Forall P l -> Forall P cur -> Forall (Forall P) acc ->
  Forall P rest /\ Forall (Forall P) args.
Proof.
  induction l as [|t r IH]; intros cur depth acc rest args H Hl Hc Ha; [discriminate|].
  inversion Hl as [|? ? Ht Hr]; subst.
  assert (Hcons : Forall P (t :: cur)) by (constructor; assumption).
  assert (Hacc : Forall (Forall P) (trim (rev cur) :: acc)) by (constructor; [apply Forall_trim, Forall_rev, Hc | exact Ha]).
  destruct t; cbn [split_args_go] in H; try (apply (IH _ _ _ _ _ H); assumption).
  - destruct depth as [|d']; [|apply (IH _ _ _ _ _ H); assumption].
    inversion H; subst rest args. split; [exact Hr | exact (Forall_rev Hacc)].
  - destruct (Nat.eqb depth 0); apply (IH _ _ _ _ _ H); try assumption. constructor.
Qed.

Lemma Forall_split_args after rest args :
  split_args after = SOk rest args -> Forall P after -> Forall P rest /\ Forall (Forall P) args.
Proof.
  intros H Hc. unfold split_args in H. destruct (trim_start_all_spec after) as [pre E].
  rewrite E in Hc. apply Forall_app in Hc as [_ Hc].
  destruct (trim_start_all after) as [|[] r]; try discriminate.
  destruct (split_args_go r [] 0 []) as [[r' a']|] eqn:G; [|discriminate]. inversion H; subst.
  inversion Hc; subst. apply (Forall_split_go _ _ _ _ _ _ G); try assumption; constructor.
Qed.

(* Q: what is asked of the tokens of a replacement list, parameter references aside *)
Lemma Forall_subst (Q : mtok -> Prop) body args : (forall t, Q t -> (forall i, t <> MArg i) -> P t) ->
  Forall Q body -> Forall (Forall P) args -> Forall P (subst body args).
Proof.
  intros HQ Hb Ha. induction Hb as [|t r Ht _ IH]; [constructor|].
  destruct t; cbn [subst]; try (constructor; [apply (HQ _ Ht); discriminate | exact IH]).
  apply Forall_app. split; [|exact IH].
  clear -Ha. revert i. induction Ha as [|x l Hx _ IHl]; intros [|i]; cbn [nth]; try constructor; [exact Hx | apply IHl].
Qed.

End Closure.

Lemma first_non_ws_bound : forall l k d, first_non_ws l k = Some d -> k <= d < k + List.length l.
Proof.
  induction l as [|t r IH]; intros k d H; cbn [first_non_ws] in H; [discriminate|].
  destruct (is_ws t).
  - specialize (IH _ _ H). cbn [List.length]. lia.
  - inversion H; subst. cbn [List.length]. lia.
Qed.

(* the test of find_single_macro's inner loop: may macro m, at index mi, be invoked by the identifier x at position i? *)
Definition usable (dis : list bool) (x : string) (after : list mtok) (i next : nat) (lastfn : option nat)
                  (mi : nat) (m : macro) : bool :=
  negb (nth mi dis false) &&
  negb ((match lastfn with Some k => Nat.eqb k mi | None => false end) && Nat.ltb i next) &&
  String.eqb x (m_name m) &&
  (if m_fn m then
     match nth_error after (first_non_ws_inline after (S i) - S i) with
     | Some MLP => negb (Nat.ltb (first_non_ws_inline after (S i)) next)
     | _ => false
     end
   else negb (Nat.ltb i next)).

Lemma pick_cons m rest dis mi x after i next lastfn :
  pick_macro (m :: rest) dis mi x after i next lastfn =
  if usable dis x after i next lastfn mi m then Some mi else pick_macro rest dis (S mi) x after i next lastfn.
Proof.
  cbn [pick_macro]. unfold usable. destruct (nth mi dis false); [reflexivity|].
  destruct (_ && Nat.ltb i next); [reflexivity|]. destruct (String.eqb x (m_name m)); [|reflexivity].
  cbn [negb andb]. destruct (m_fn m).
  - destruct (nth_error after _) as [[]|]; try reflexivity. destruct (Nat.ltb _ next); reflexivity.
  - destruct (Nat.ltb i next); reflexivity.
Qed.

Lemma pick_some dis x after i next lastfn : forall ds mi0 mi,
  pick_macro ds dis mi0 x after i next lastfn = Some mi ->
  exists m, nth_error ds (mi - mi0) = Some m /\ mi0 <= mi /\ usable dis x after i next lastfn mi m = true.
Proof.
  induction ds as [|m rest IH]; intros mi0 mi H; [discriminate|]. rewrite pick_cons in H.
  destruct (usable dis x after i next lastfn mi0 m) eqn:Hu.
  - inversion H; subst mi. exists m. rewrite Nat.sub_diag. repeat split; [lia | exact Hu].
  - destruct (IH _ _ H) as (m0 & Hn & Hle & Hu0). exists m0.
    replace (mi - mi0) with (S (mi - S mi0)) by lia. repeat split; [exact Hn | lia | exact Hu0].
Qed.

Lemma pick_first dis x after i next lastfn : forall ds mi0 k m,
  nth_error ds k = Some m -> usable dis x after i next lastfn (mi0 + k) m = true ->
  (forall j m', j < k -> nth_error ds j = Some m' -> usable dis x after i next lastfn (mi0 + j) m' = false) ->
  pick_macro ds dis mi0 x after i next lastfn = Some (mi0 + k).
Proof.
  induction ds as [|m0 r IH]; intros mi0 k m Hn Hu Hfirst; [destruct k; discriminate|]. rewrite pick_cons.
  destruct k as [|k].
  - inversion Hn; subst m0. rewrite Nat.add_0_r in *. rewrite Hu. reflexivity.
  - pose proof (Hfirst 0 m0 ltac:(lia) eq_refl) as H0. rewrite Nat.add_0_r in H0. rewrite H0.
    replace (mi0 + S k) with (S mi0 + k) in * by lia. apply (IH _ _ m Hn Hu).
    intros j m' Hj Hn'. replace (S mi0 + j) with (mi0 + S j) by lia. apply (Hfirst (S j) m'); [lia | exact Hn'].
Qed.

Lemma pick_none dis x after i next lastfn : forall ds mi0,
  (forall k m, nth_error ds k = Some m -> usable dis x after i next lastfn (mi0 + k) m = false) ->
  pick_macro ds dis mi0 x after i next lastfn = None.
Proof.
  induction ds as [|m0 r IH]; intros mi0 H; [reflexivity|]. rewrite pick_cons.
  pose proof (H 0 m0 eq_refl) as H0. rewrite Nat.add_0_r in H0. rewrite H0. apply IH.
  intros k m Hk. replace (S mi0 + k) with (mi0 + S k) by lia. apply (H (S k) m Hk).
Qed.

Lemma usable_true dis x after i next lastfn mi m : usable dis x after i next lastfn mi m = true ->
  nth mi dis false = false /\ m_name m = x /\
  (m_fn m = false -> next <= i) /\
  (m_fn m = true -> nth_error after (first_non_ws_inline after (S i) - S i) = Some MLP /\
                    next <= first_non_ws_inline after (S i)).
Proof.
  unfold usable. intros H. apply andb_prop in H as [H H4]. apply andb_prop in H as [H H3]. apply andb_prop in H as [H1 _].
  apply negb_true_iff in H1. apply String.eqb_eq in H3. split; [exact H1|]. split; [symmetry; exact H3|].
  destruct (m_fn m); split; intros Hf; try discriminate Hf.
  - destruct (nth_error after _) as [[]|]; try discriminate. apply negb_true_iff, Nat.ltb_ge in H4. split; [reflexivity | exact H4].
  - apply negb_true_iff, Nat.ltb_ge in H4. exact H4.
Qed.

Lemma usable_here dis x after i next lastfn mi m :
  next <= i -> nth mi dis false = false -> m_name m = x -> (m_fn m = true -> exists post, after = MLP :: post) ->
  usable dis x after i next lastfn mi m = true.
Proof.
  intros Hle Hd Hx Hfn. unfold usable. apply Nat.ltb_ge in Hle as Hlt.
  rewrite Hd, <- Hx, String.eqb_refl, Hlt, andb_false_r. cbn [negb andb].
  destruct (m_fn m); [|reflexivity]. destruct (Hfn eq_refl) as [post ->].
  cbn [first_non_ws_inline is_ws]. rewrite Nat.sub_diag. cbn [nth_error].
  replace (Nat.ltb (S i) next) with false by (symmetry; apply Nat.ltb_ge; lia). reflexivity.
Qed.

Lemma usable_blocked dis x after i next lastfn mi m :
  String.eqb x (m_name m) = false \/ nth mi dis false = true \/ (m_fn m = false /\ i < next) ->
  usable dis x after i next lastfn mi m = false.
Proof.
  unfold usable. intros [H|[H|[Hf H]]].
  - rewrite H, andb_false_r. reflexivity.
  - rewrite H. reflexivity.
  - apply Nat.ltb_lt in H. rewrite Hf, H. apply andb_false_r.
Qed.

Definition noc (l : list mtok) : Prop := Forall (fun t => t <> MConcat) l.

(* what a result of find_from says about the list l it scanned from position i (`before`: the tokens left of i, reversed) *)
Definition find_post (defs : list macro) (dis : list bool) (next : nat) (lastfn : option nat)
                     (before l : list mtok) (i : nat) (r : found) : Prop :=
  match r with
  | FUser mi pos => exists mid x tail m, l = mid ++ MId x :: tail /\ pos = i + List.length mid /\ noc mid /\
                      nth_error defs mi = Some m /\ usable dis x tail pos next lastfn mi m = true
  | FConcat lp rp => exists mid tail dl dr, l = mid ++ MConcat :: tail /\ noc mid /\ next <= i + List.length mid /\
                      first_non_ws (rev mid ++ before) 0 = Some dl /\ lp = i + List.length mid - dl - 1 /\
                      first_non_ws tail 0 = Some dr /\ rp = i + List.length mid + dr + 1
  | FNone => noc l
  | FHang => exists mid tail, l = mid ++ MConcat :: tail /\ i + List.length mid < next
  | FErr _ => True
  end.

Lemma find_post_cons defs dis next lastfn before t l i r : t <> MConcat ->
  find_post defs dis next lastfn (t :: before) l (S i) r -> find_post defs dis next lastfn before (t :: l) i r.
Proof.
  intros Ht H. destruct r; cbn [find_post] in *.
  - destruct H as (mid & x & tail & m & -> & -> & Hn & Hm & Hu). exists (t :: mid), x, tail, m.
    replace (i + List.length (t :: mid)) with (S i + List.length mid) by (cbn; lia).
    repeat split; try assumption. constructor; assumption.
  - destruct H as (mid & tail & dl & dr & -> & Hn & Hle & Hl & -> & Hr & ->). exists (t :: mid), tail, dl, dr.
    repeat split; try assumption; try (cbn [List.length]; lia); [constructor; assumption|].
    cbn [rev]. rewrite <- app_assoc. exact Hl.
  - constructor; assumption.
  - exact Logic.I.
  - destruct H as (mid & tail & -> & Hlt). exists (t :: mid), tail. split; [reflexivity | cbn [List.length]; lia].
Qed.

Lemma find_from_spec defs dis next lastfn : forall l before i,
  find_post defs dis next lastfn before l i (find_from defs dis before l i next lastfn).
Proof.
  induction l as [|t r IH]; intros before i; cbn [find_from]; [constructor|].
  destruct t; try (apply find_post_cons; [discriminate | apply IH]).
  - (* MId *)
    destruct (pick_macro defs dis 0 s r i next lastfn) as [mi|] eqn:Hp; [|apply find_post_cons; [discriminate | apply IH]].
    apply pick_some in Hp as (m & Hm & _ & Hu). rewrite Nat.sub_0_r in Hm.
    exists [], s, r, m. cbn [List.length]. rewrite Nat.add_0_r. repeat split; try assumption. constructor.
  - (* MConcat *)
    destruct (Nat.ltb_spec i next).
    + exists [], r. split; [reflexivity | cbn; lia].
    + destruct (first_non_ws before 0) as [dl|] eqn:Hl; [|exact Logic.I].
      destruct (first_non_ws r 0) as [dr|] eqn:Hr; [|exact Logic.I].
      exists [], r, dl, dr. cbn [List.length app rev]. repeat split; try assumption; try lia. constructor.
Qed.

Lemma find_post_app defs dis next lastfn : forall pre before l i r, noc pre ->
  find_post defs dis next lastfn (rev pre ++ before) l (i + List.length pre) r ->
  find_post defs dis next lastfn before (pre ++ l) i r.
Proof.
  induction pre as [|t p IH]; intros before l i r Hn H; [rewrite Nat.add_0_r in H; exact H|].
  inversion Hn; subst. cbn [app]. apply find_post_cons; [assumption|]. apply IH; [assumption|].
  cbn [rev List.length] in H. rewrite <- app_assoc in H. replace (S i + List.length p) with (i + S (List.length p)) by lia.
  exact H.
Qed.

Lemma find_spec defs dis toks early next lastfn : early <= next <= List.length toks -> noc (firstn next toks) ->
  find_post defs dis next lastfn [] toks 0 (find defs dis toks early next lastfn).
Proof.
  intros He Hn.
  pose proof (find_post_app defs dis next lastfn (firstn early toks) [] (skipn early toks) 0
                (find defs dis toks early next lastfn)) as H.
  rewrite firstn_skipn, app_nil_r, firstn_length_le in H by lia. apply H.
  - apply (Forall_firstn_le _ early next); [apply He | exact Hn].
  - apply find_from_spec.
Qed.

Lemma all_ok_spec (Q : xres -> Prop) l : Forall Q l -> forall acc, Forall (fun a => Q (XOk a)) acc ->
  match all_ok l acc with inr out => Forall (fun a => Q (XOk a)) out | inl e => Q e end.
Proof.
  induction 1 as [|x r Hx _ IH]; intros acc Hacc; cbn [all_ok]; [apply Forall_rev, Hacc|].
  destruct x; try exact Hx. apply IH. constructor; assumption.
Qed.

Lemma all_ok_forall2 (f : list mtok -> xres) l l' :
  Forall2 (fun a a' => f a = XOk a') l l' -> forall acc, all_ok (map f l) acc = inr (rev acc ++ l').
Proof.
  induction 1 as [|a a' l l' Ha _ IH]; intros acc; cbn [map all_ok]; [rewrite app_nil_r; reflexivity|].
  rewrite Ha, IH. cbn [rev]. rewrite <- app_assoc. reflexivity.
Qed.

(* what loop_step does once the macro and its arguments are known: expand the arguments, rescan the replacement
   list with them substituted, go on behind the result *)
Definition step_body (self : list mtok -> nat -> nat -> option nat -> xres) (inner : nat -> list mtok -> xres)
                     (mi : nat) (m : macro) (toks : list mtok) (pos : nat) (lf : option nat) (rest : list mtok)
                     (args : list (list mtok)) : xres :=
  match all_ok (map (fun a => self a 0 0 None) args) [] with
  | inl e => e
  | inr args' =>
      match inner mi (subst (m_body m) args') with
      | XOk out => self (firstn pos toks ++ out ++ rest) (pos + List.length out) pos lf
      | e => e
      end
  end.

Lemma expand_eq paste defs d dis n toks next early lastfn :
  expand paste defs (S d) dis (S n) toks next early lastfn =
  loop_step paste defs (expand paste defs (S d) dis n)
            (fun mi out => expand paste defs d (set_nth dis mi true) (S (List.length out)) out 0 0 None)
            dis toks next early lastfn.
Proof. reflexivity. Qed.

Lemma nth_all_false {A} (l : list A) i : nth i (map (fun _ => false) l) false = false.
Proof. revert i; induction l as [|x r IH]; intros [|i]; cbn; try reflexivity. apply IH. Qed.

Lemma nth_set_other dis i j : i <> j -> nth j (set_nth dis i true) false = nth j dis false.
Proof.
  revert i j; induction dis as [|b r IH]; intros [|i] [|j] H; cbn; try reflexivity; try congruence.
  apply IH. congruence.
Qed.
Lemma nth_set_same : forall (l : list bool) i, i < List.length l -> nth i (set_nth l i true) false = true.
Proof. induction l as [|b r IH]; intros [|i] H; cbn in *; try lia; try reflexivity. apply IH. lia. Qed.
