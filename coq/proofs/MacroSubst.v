(* MacroSubst.v — the vocabulary of the substitution theorems: text that names no macro and holds no `##` (plain),
   plain arguments with balanced parentheses, so that their commas lie inside them (simple), the text between the parentheses of an
   invocation (commas), replacement lists of plain tokens and parameter references (bodyb); with the closure lemmas
   of `plain` and what split_args_go does on a balanced argument. *)
From Coq Require Import List Bool String Arith Lia.
From RV Require Import Macro MacroParts.
Import ListNotations.
Local Open Scope list_scope.

Section Subst.
Variable defs : list macro.

Definition is_name (x : string) : bool := existsb (fun m => String.eqb x (m_name m)) defs.

(* a token that cannot start or take part in an expansion *)
Definition plainb (t : mtok) : bool :=
  match t with MId x => negb (is_name x) | MConcat => false | MArg _ => false | _ => true end.
Definition plain (l : list mtok) : Prop := forallb plainb l = true.

(* the parenthesis depth after the tokens of an argument; None where a `,` or `)` of the call itself would be met *)
Fixpoint depth_after (d : nat) (a : list mtok) : option nat :=
  match a with
  | [] => Some d
  | MLP :: r => depth_after (S d) r
  | MRP :: r => match d with O => None | S d' => depth_after d' r end
  | MComma :: r => if Nat.eqb d 0 then None else depth_after d r
  | _ :: r => depth_after d r
  end.
Definition simple (a : list mtok) : Prop := plain a /\ depth_after 0 a = Some 0.

(* the text between the parentheses *)
Fixpoint commas (args : list (list mtok)) : list mtok :=
  match args with
  | [] => []
  | [a] => a
  | a :: r => a ++ MComma :: commas r
  end.

Definition bodyb (t : mtok) : bool := match t with MArg _ => true | _ => plainb t end.

Lemma is_name_false x : is_name x = false -> forall k m, nth_error defs k = Some m -> String.eqb x (m_name m) = false.
Proof.
  intros H k m Hk. destruct (String.eqb x (m_name m)) eqn:E; [|reflexivity].
  rewrite <- H. symmetry. apply existsb_exists. exists m. split; [apply (nth_error_In _ _ Hk) | exact E].
Qed.

Lemma plain_forall l : plain l <-> forall t, In t l -> plainb t = true.
Proof. apply forallb_forall. Qed.

(* `plain` is `Forall` of a property of tokens, so the closure lemmas of MacroParts apply *)
Lemma plain_Forall l : plain l <-> Forall (fun t => plainb t = true) l.
Proof. rewrite Forall_forall. apply plain_forall. Qed.

Lemma plain_app a b : plain a -> plain b -> plain (a ++ b).
Proof. unfold plain. intros Ha Hb. rewrite forallb_app, Ha, Hb. reflexivity. Qed.

Lemma plain_skipn n a : plain a -> plain (skipn n a).
Proof. intros H. apply plain_Forall, Forall_skipn, plain_Forall, H. Qed.

Lemma plain_trim a : plain a -> plain (trim a).
Proof. intros H. apply plain_Forall, Forall_trim, plain_Forall, H. Qed.

Lemma simple_plain l : simple l -> plain l.
Proof. intros [H _]. exact H. Qed.

Lemma plain_commas args : Forall plain args -> plain (commas args).
Proof.
  induction 1 as [|a r Ha _ IH]; [reflexivity|]. destruct r as [|b r']; [exact Ha|].
  change (commas (a :: b :: r')) with (a ++ MComma :: commas (b :: r')). apply plain_app; [exact Ha | exact IH].
Qed.

Lemma subst_is_plain body args : forallb bodyb body = true -> Forall plain args -> plain (subst body args).
Proof.
  intros Hb Ha. apply plain_Forall, (Forall_subst _ (fun t => bodyb t = true)).
  - intros t Ht Hna. destruct t; try exact Ht. contradiction (Hna i). reflexivity.
  - apply Forall_forall, forallb_forall, Hb.
  - revert Ha. apply Forall_impl. intros a. apply plain_Forall.
Qed.

Lemma split_go_depth : forall a d d' rest cur acc, depth_after d a = Some d' ->
  split_args_go (a ++ rest) cur d acc = split_args_go rest (rev a ++ cur) d' acc.
Proof.
  induction a as [|t r IH]; intros d d' rest cur acc H; cbn [depth_after] in H.
  - inversion H. reflexivity.
  - cbn [app rev]. rewrite <- app_assoc. cbn [app].
    destruct t; cbn [split_args_go]; try (apply IH; exact H).
    + destruct d as [|d0]; [discriminate|]. apply IH; exact H.
    + destruct (Nat.eqb d 0); [discriminate|]. apply IH; exact H.
Qed.

End Subst.
