(* LexerTrivia3.v — an identifier, keyword, reserved word, operator symbol or string is read the same whatever follows
   it, as long as the next character cannot become part of it (`follows_tok`): a word must not be followed by an
   identifier character, an operator symbol not by `=`, not by its own first character (`+` `+`) and - for `/` - not
   by `*`.  Blanks and a backslash are always of that kind, a slash unless the token begins with one (solid_follows):
   the text of a comment directly after the operator `/` is not a comment there (`a//* c */b`).
   On solid_tok_inv of LexerTrivia; the theorems on a blank behind such a token go through insert_after of LexerTrivia2.
   `stable`: the general form of such a statement, for any class of next characters.
   `solid_check`: the conditions on such a token in front of a given character as one computation, for texts and
   tables that are closed terms.
   `Pre`: a prefix made of such tokens, each followed by a character of that kind, and of trivia pieces, in any
   arrangement (tokens may touch); numeric literals and `<` / `>` are not allowed in it. *)
From Coq Require Import List NArith Bool String Ascii Arith Lia.
From RV Require Import Lexer LexerProofs LexerTrivia LexerTrivia2.
Import ListNotations.
Local Open Scope string_scope.

Definition follows_tok (c w : ascii) : Prop :=
  (is_alpha_ c = true -> is_ident_char w = false) /\
  (is_alpha_ c = false -> Ascii.eqb w "=" = false /\ Ascii.eqb w c = false /\ (Ascii.eqb c "/" = true -> Ascii.eqb w "*" = false)).

Definition follows_tokb (c w : ascii) : bool :=
  if is_alpha_ c then negb (is_ident_char w)
  else negb (Ascii.eqb w "=") && negb (Ascii.eqb w c) && negb (Ascii.eqb c "/" && Ascii.eqb w "*").

Lemma follows_tokb_ok c w : follows_tokb c w = true -> follows_tok c w.
Proof.
  unfold follows_tokb, follows_tok. destruct (is_alpha_ c); intros H.
  - apply negb_true_iff in H. split; [intros _; exact H | discriminate].
  - apply andb_true_iff in H as [H H3]. apply andb_true_iff in H as [H1 H2]. apply negb_true_iff in H1, H2, H3.
    split; [discriminate|]. intros _. repeat split; try assumption. intros E. rewrite E in H3. exact H3.
Qed.

(* the character after the prefix element: the head of the rest of the prefix, or the character the prefix is followed by *)
Definition next_char (nxt : ascii) (p : string) : ascii := match p with String w _ => w | EmptyString => nxt end.

(* the test for a comment start behind a token a' that begins with a slash looks at one character *)
Lemma comment_test_local c k a' b w b' :
  Ascii.eqb c "/" && starts_with (String k "") (a' ++ b) = false -> (Ascii.eqb c "/" = true -> Ascii.eqb w k = false) ->
  Ascii.eqb c "/" && starts_with (String k "") (a' ++ String w b') = false.
Proof.
  intros H Hw. destruct a' as [|d a'']; cbn [append] in *; [|rewrite starts_cons, starts_nil in *; exact H].
  rewrite starts_cons. destruct (Ascii.eqb c "/"); [|reflexivity]. rewrite Ascii.eqb_sym, (Hw eq_refl). reflexivity.
Qed.

Section Trivia3.
Variable keywords : list (string * string).
Variable reserved_words : list string.
Variable symbols : list (N * string * option string * option string).
Variable int_suffixes : list (list (list N) * string).
Variable float_suffixes : list (list N * string).
Variable float_is_zero : string -> bool.
Variable utf8_ok : string -> bool.

Notation tok_at := (tok_at keywords reserved_words symbols int_suffixes float_suffixes float_is_zero utf8_ok).
Notation Lexes := (Lexes keywords reserved_words symbols int_suffixes float_suffixes float_is_zero utf8_ok).
Notation lex_file := (lex_file keywords reserved_words symbols int_suffixes float_suffixes float_is_zero utf8_ok).
Notation Spaced := (Spaced keywords reserved_words symbols int_suffixes float_suffixes float_is_zero utf8_ok).

Definition stable (ok : ascii -> Prop) (a : string) (t : tok) : Prop :=
  forall w r, ok w -> tok_at false (a ++ String w r) = LOk t (slen a).

Lemma stable_next ok a t nxt q : stable ok a t -> ok (next_char nxt q) ->
  forall b, starts nxt b -> tok_at false (a ++ q ++ b) = LOk t (slen a).
Proof. intros St Hok b (r & ->). destruct q as [|w q']; cbn [next_char append] in *; apply St, Hok. Qed.

Theorem solid_token_ignores_next c a' b t :
  tok_at false (String c a' ++ b) = LOk t (slen (String c a')) -> solid t = true -> stable (follows_tok c) (String c a') t.
Proof.
  intros H St w b' (FA & FS). cbn [append] in *.
  destruct (solid_tok_inv _ _ _ _ H St) as [(Ha & W)|[(-> & Q)|(Ha & _ & C1 & C2 & Sym)]].
  - (* a word: the span of identifier characters is exactly the token, and stops at w *)
    rewrite W in *. exact (lex_word_local _ _ (String c a') b t w b' H (FA Ha)).
  - rewrite Q in *. exact (lex_quoted_local _ _ _ _ _ _ _ a' b t (String w b') H).
  - destruct (FS Ha) as (We & Wc & Ws). rewrite (Sym _ C1 C2) in H. rewrite Sym.
    + destruct (lex_symbol symbols c (a' ++ b)) as [[t0 n0]|] eqn:Y; [|discriminate]. inversion H; subst t0 n0.
      destruct (lex_symbol_sym _ _ _ _ _ Y) as [v ->]. rewrite (lex_symbol_local symbols c a' b v w b' Y We Wc). reflexivity.
    + apply (comment_test_local c "/" a' b); [exact C1|]. intros E. apply Ascii.eqb_eq in E. subst c. exact Wc.
    + exact (comment_test_local c "*" a' b w b' C2 Ws).
Qed.

Lemma trivia_start_facts w c : blank w \/ w = "\"%char \/ w = "/"%char /\ Ascii.eqb c "/" = false ->
  is_ident_char w = false /\ Ascii.eqb w "=" = false /\ Ascii.eqb w "*" = false /\ Ascii.eqb w """" = false /\
  ((Ascii.eqb c " " || Ascii.eqb c "009") = false /\ Ascii.eqb c "010" = false /\ Ascii.eqb c "\" = false -> Ascii.eqb w c = false).
Proof.
  intros [[ -> | [ -> | -> ] ] | [ -> | [ -> Cs ] ] ]; repeat split; try reflexivity;
    intros (W1 & W2 & W4); apply orb_false_iff in W1 as [X1 X2]; rewrite Ascii.eqb_sym; assumption.
Qed.

Lemma solid_follows c r t n w : tok_at false (String c r) = LOk t n -> solid t = true ->
  blank w \/ w = "\"%char \/ w = "/"%char /\ Ascii.eqb c "/" = false -> follows_tok c w.
Proof.
  intros T St Hw. destruct (trivia_start_facts w c Hw) as (Ei & Ee & Es & Eq & Ec).
  split; [intros _; exact Ei|]. intros Ha. repeat split; [exact Ee| |intros _; exact Es].
  (* w is not the token's first character *)
  destruct (solid_tok_inv _ _ _ _ T St) as [(Ha' & _)|[(-> & _)|(_ & W & _)]]; [congruence | exact Eq | exact (Ec W)].
Qed.

Lemma blank_follows_tok c t n r : tok_at false (String c r) = LOk t n -> solid t = true -> follows_tok c " ".
Proof. intros T St. apply (solid_follows c r t n " " T St). left. left. reflexivity. Qed.

Theorem solid_token_ignores_following_blank a b t w b' :
  tok_at false (a ++ b) = LOk t (slen a) -> solid t = true -> blank w ->
  tok_at false (a ++ String w b') = LOk t (slen a).
Proof.
  intros T St Bw. destruct a as [|c a'].
  - (* a token is never empty *)
    exfalso. destruct b as [|c r]; [discriminate|].
    assert (Bd : bounded (String c r) (tok_at false (String c r))) by (apply tok_at_bounded; discriminate).
    cbn [append] in T. rewrite T in Bd. cbn in Bd. lia.
  - exact (solid_token_ignores_next c a' b t T St w b' (solid_follows c _ t _ w T St (or_introl Bw))).
Qed.

Theorem blank_after_solid_token a b last t ts w :
  tok_at false (a ++ b) = LOk t (slen a) -> solid t = true -> blank w ->
  Lexes (a ++ b) last (t :: ts) ->
  exists ts', Lexes (a ++ String w b) last (t :: ts') /\ strip ts' = strip ts.
Proof.
  intros T St Bw. apply (insert_after a b (String w "") t last ts T).
  - exact (solid_token_ignores_following_blank a b t w b T St Bw).
  - apply TrOne, PBlank, Bw.
Qed.

Corollary blank_after_first_token a b t w spans :
  tok_at false (a ++ b) = LOk t (slen a) -> solid t = true -> blank w ->
  lex_file (a ++ b) = SOk spans ->
  exists spans', lex_file (a ++ String w b) = SOk spans' /\ strip (toks spans') = strip (toks spans).
Proof.
  intros T St Bw. apply lex_file_lift. intros l L.
  destruct (proj1 (Lexes_step _ _ _ _ T l) L) as (ts & -> & _).
  destruct (blank_after_solid_token a b true t ts w T St Bw L) as (ts' & L' & S').
  exists (t :: ts'). split; [exact L' | exact (strip_congr [t] _ _ S')].
Qed.

(* `<` and `>` record whether a token that is not whitespace follows; they are stable in front of a class of
   characters that all begin such a token (f = true), or none of which does (f = false) *)
Definition angle (c : ascii) (f : bool) : tok := if Ascii.eqb c "<" then TLAngle f else TRAngle f.

Lemma tok_at_angle c r : c = "<"%char \/ c = ">"%char ->
  tok_at false (String c r) = LOk (angle c (match tok_at false r with LOk t _ => negb (is_ws t) | LErr _ _ => false end)) 1.
Proof. intros [ -> | -> ]; reflexivity. Qed.

Lemma angle_stable c (ok : ascii -> Prop) f : c = "<"%char \/ c = ">"%char ->
  (forall w r, ok w -> exists t n, tok_at false (String w r) = LOk t n /\ negb (is_ws t) = f) ->
  stable ok (String c "") (angle c f).
Proof.
  intros Hc H w r Hw. destruct (H w r Hw) as (t & n & Ht & Hf). cbn [append].
  rewrite (tok_at_angle c _ Hc), Ht, Hf. reflexivity.
Qed.

Lemma word_starts_token w r : is_alpha_ w = true -> exists t n, tok_at false (String w r) = LOk t n /\ negb (is_ws t) = true.
Proof.
  intros Ha. cbn [Lexer.tok_at].
  assert (Hd : is_digit w = false).
  { unfold is_alpha_, is_digit in *. destruct ((48 <=? code w)%N && (code w <=? 57)%N) eqn:D; [|reflexivity]. exfalso.
    apply andb_true_iff in D as [D1 D2]. apply N.leb_le in D1, D2.
    apply orb_true_iff in Ha as [Ha|Ha]; [apply orb_true_iff in Ha as [Ha|Ha]; apply andb_true_iff in Ha as [H1 H2]; apply N.leb_le in H1, H2; lia|].
    apply N.eqb_eq in Ha. lia. }
  rewrite Hd, Ha. unfold Lexer.lex_word. destruct (span is_ident_char (String w r)) as [w0 r0].
  destruct (find _ keywords) as [[k v]|]; [eexists; eexists; split; reflexivity|].
  destruct (existsb _ reserved_words); eexists; eexists; split; reflexivity.
Qed.

Lemma blank_starts_no_token w r : blank w -> exists t n, tok_at false (String w r) = LOk t n /\ negb (is_ws t) = false.
Proof.
  intros Bw. exists (ws_tok w), 1. split; [apply blank_token, Bw | rewrite ws_tok_ws; reflexivity].
Qed.

Inductive Pre (nxt : ascii) : string -> Prop :=
| PreNil : Pre nxt ""
| PreTok c a' t p :
    tok_at false (String c a' ++ String " " "") = LOk t (slen (String c a')) -> solid t = true ->
    follows_tok c (next_char nxt p) -> Pre nxt p -> Pre nxt (String c a' ++ p)
| PreTrivia x p : Piece x -> Pre nxt p -> Pre nxt (x ++ p).

Definition solid_check (c : ascii) (a' : string) (w : ascii) : option tok :=
  match tok_at false (String c a' ++ String " " "") with
  | LOk t n => if solid t && Nat.eqb n (slen (String c a')) && follows_tokb c w then Some t else None
  | LErr _ _ => None
  end.

Lemma solid_check_ok c a' w t : solid_check c a' w = Some t ->
  tok_at false (String c a' ++ String " " "") = LOk t (slen (String c a')) /\ solid t = true /\ follows_tok c w.
Proof.
  unfold solid_check. destruct (tok_at false _) as [t0 n|]; [|discriminate].
  destruct (solid t0) eqn:St, (Nat.eqb_spec n (slen (String c a'))), (follows_tokb c w) eqn:F; try discriminate.
  intros H. inversion H. subst. auto using follows_tokb_ok.
Qed.

Lemma pre_solid_closed nxt c a' p : solid_check c a' (next_char nxt p) <> None -> Pre nxt p -> Pre nxt (String c a' ++ p).
Proof.
  destruct (solid_check c a' (next_char nxt p)) as [t|] eqn:E; [intros _|congruence].
  destruct (solid_check_ok _ _ _ _ E) as (T & St & F). exact (PreTok nxt c a' t p T St F).
Qed.

Lemma spaced_pre p tp : Spaced p tp -> forall nxt, Pre nxt p.
Proof.
  induction 1 as [|c a' w t p ts T St Bw Sp IH]; intros nxt; [constructor|].
  apply (PreTok nxt c a' t (String w p)); [|exact St| |].
  - exact (solid_token_ignores_next c a' (String w "") t T St " "%char "" (blank_follows_tok c t _ _ T St)).
  - exact (solid_follows c _ t _ w T St (or_introl Bw)).
  - apply (PreTrivia nxt (String w "") p); [apply PBlank, Bw | apply IH].
Qed.

End Trivia3.

Arguments stable_next [keywords reserved_words symbols int_suffixes float_suffixes float_is_zero utf8_ok].
Arguments solid_token_ignores_next [keywords reserved_words symbols int_suffixes float_suffixes float_is_zero utf8_ok].
Arguments solid_follows [keywords reserved_words symbols int_suffixes float_suffixes float_is_zero utf8_ok].
Arguments tok_at_angle [keywords reserved_words symbols int_suffixes float_suffixes float_is_zero utf8_ok].
Arguments angle_stable [keywords reserved_words symbols int_suffixes float_suffixes float_is_zero utf8_ok].
Arguments solid_check_ok [keywords reserved_words symbols int_suffixes float_suffixes float_is_zero utf8_ok].
Arguments pre_solid_closed [keywords reserved_words symbols int_suffixes float_suffixes float_is_zero utf8_ok].
Arguments spaced_pre [keywords reserved_words symbols int_suffixes float_suffixes float_is_zero utf8_ok].
