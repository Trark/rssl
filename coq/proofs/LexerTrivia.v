(* LexerTrivia.v — the notions the layout-trivia theorems are stated in, and the tools their proofs share; on top
   of the length lemmas and the number recognisers cut into parts of LexerProofs.
   `solid`: identifiers, keywords, reserved words, operator symbols and strings; solid_tok_inv says how the lexer reads
   such a token (as a word, as a string, as a symbol) in a form that can be replayed on another rest of the input.
   `Lexes`: TokenStream::read_to_end without the spans, with the bridge to `lex_file` (lex_file_lift) and the notion
   of a text that lexes to the same tokens in front of every continuation of some class (`Frame`).
   (`<` and `>` record whether a token follows them directly - the exception the property names.) *)
From Coq Require Import List NArith Bool String Ascii Arith Lia.
From RV Require Import Lexer LexerProofs.
Import ListNotations.
Local Open Scope string_scope.

Fixpoint all (p : ascii -> bool) (s : string) : bool :=
  match s with EmptyString => true | String c r => p c && all p r end.

Lemma span_exact p a b : slen (fst (span p (a ++ b))) = slen a -> fst (span p (a ++ b)) = a /\ all p a = true.
Proof.
  revert b. induction a as [|c a IH]; intros b H; cbn [append span all] in *.
  - destruct (fst (span p b)); [split; reflexivity | discriminate H].
  - destruct (p c); [|discriminate H]. specialize (IH b). destruct (span p (a ++ b)) as [x y]. cbn [fst] in *.
    rewrite !slen_cons in H. destruct IH as [-> ->]; [lia | split; reflexivity].
Qed.

Lemma all_ext p q a : (forall c, p c = q c) -> all p a = all q a.
Proof. intros E. induction a as [|c a IH]; [reflexivity|]. cbn [all]. rewrite E, IH. reflexivity. Qed.

Lemma span_stop p a w b : all p a = true -> p w = false -> span p (a ++ String w b) = (a, String w b).
Proof.
  induction a as [|c a IH]; intros A W; cbn [append span all] in *; [rewrite W; reflexivity|].
  apply andb_true_iff in A as [A1 A2]. rewrite A1, (IH A2 W). reflexivity.
Qed.

Lemma span_fst_all p s : all p (fst (span p s)) = true.
Proof.
  induction s as [|c r IH]; [reflexivity|]. cbn [span]. destruct (p c) eqn:E; [|reflexivity].
  destruct (span p r) as [x y]. cbn [fst all] in *. rewrite E, IH. reflexivity.
Qed.

Lemma index_of_app c a b n : index_of c (a ++ b) = Some n -> n < slen a -> forall x, index_of c (a ++ x) = Some n.
Proof.
  revert n. induction a as [|d a IH]; intros n H L x; [cbn in L; lia|]. cbn [append index_of] in *.
  destruct (Ascii.eqb c d); [exact H|].
  destruct (index_of c (a ++ b)) as [m|] eqn:E; [|discriminate]. cbn in H. inversion H; subst.
  rewrite slen_cons in L. rewrite (IH m eq_refl ltac:(lia) x). reflexivity.
Qed.

Lemma substring_app m a x : m <= slen a -> substring 0 m (a ++ x) = substring 0 m a.
Proof.
  revert a. induction m as [|m IH]; intros a L; [destruct a, x; reflexivity|].
  destruct a as [|c a]; [cbn in L; lia|]. cbn [append substring]. rewrite slen_cons in L. rewrite IH by lia. reflexivity.
Qed.

Lemma substring_all s : substring 0 (slen s) s = s.
Proof. induction s as [|x s IH]; [reflexivity|]. rewrite slen_cons. cbn [substring]. rewrite IH. reflexivity. Qed.

Lemma starts_cons k p d x : starts_with (String k p) (String d x) = Ascii.eqb k d && starts_with p x.
Proof.
  unfold starts_with. cbn [String.prefix]. destruct (ascii_dec k d) as [->|N].
  - rewrite Ascii.eqb_refl. reflexivity.
  - apply Ascii.eqb_neq in N. rewrite N. reflexivity.
Qed.

Lemma starts_nil x : starts_with "" x = true.
Proof. destruct x; reflexivity. Qed.

Lemma class_neq (p : ascii -> bool) w c : p w = false -> p c = true -> Ascii.eqb w c = false.
Proof. intros Hw Hc. destruct (Ascii.eqb w c) eqn:E; [apply Ascii.eqb_eq in E; subst; congruence | reflexivity]. Qed.

Definition blank (w : ascii) : Prop := w = " "%char \/ w = "009"%char \/ w = "010"%char.

Definition ws_tok (w : ascii) : tok := if Ascii.eqb w "010" then TEndline else TWhitespace.

Lemma ws_tok_ws w : is_ws (ws_tok w) = true.
Proof. unfold ws_tok. destruct (Ascii.eqb w "010"); reflexivity. Qed.

Definition solid (t : tok) : bool :=
  match t with TId _ | TKeyword _ | TReserved _ | TSym _ | TString _ => true | _ => false end.

Section Trivia.
Variable keywords : list (string * string).
Variable reserved_words : list string.
Variable symbols : list (N * string * option string * option string).
Variable int_suffixes : list (list (list N) * string).
Variable float_suffixes : list (list N * string).
Variable float_is_zero : string -> bool.
Variable utf8_ok : string -> bool.

Notation tok_at := (tok_at keywords reserved_words symbols int_suffixes float_suffixes float_is_zero utf8_ok).
Notation lex_all := (lex_all keywords reserved_words symbols int_suffixes float_suffixes float_is_zero utf8_ok).
Notation lex_file := (lex_file keywords reserved_words symbols int_suffixes float_suffixes float_is_zero utf8_ok).
Notation lex_float := (lex_float float_suffixes float_is_zero).
Notation lex_word := (lex_word keywords reserved_words).
Notation lex_symbol := (lex_symbol symbols).
Notation lex_string := (lex_quoted utf8_ok """" TString StringWrapsLine StringWrapsFile StringInvalid).

Lemma float_finish_not_solid s tl after mk t n :
  (forall k, solid (mk k) = false) -> float_finish float_suffixes s tl after mk = LOk t n -> solid t = false.
Proof.
  intros M. unfold float_finish. cbv zeta. set (total := after + _).
  destruct (drop total s) as [|c0 ?]; [intros H; inversion H; apply M|].
  destruct (is_ident_char c0); [destruct (Ascii.eqb c0 "x"); discriminate|]. intros H; inversion H; apply M.
Qed.

Lemma float_rest_not_solid s hf ml t n : float_rest float_suffixes float_is_zero s hf ml = LOk t n -> solid t = false.
Proof.
  assert (G : forall e, float_inf float_suffixes float_is_zero s ml e = LOk t n -> solid t = false).
  { intros e. unfold float_inf. cbv zeta. destruct (_ && _); [discriminate|].
    apply float_finish_not_solid. intros k. destruct (starts_with _ _); reflexivity. }
  unfold float_rest. cbv zeta. destruct hf, (lex_exponent (drop ml s)); try discriminate; apply G.
Qed.

Lemma int_token_not_solid k v t : int_token k v = Some t -> solid t = false.
Proof.
  destruct k as [k|]; cbn [int_token]; [destruct (String.eqb k _); [|destruct (String.eqb k _); [|destruct (_ <=? _)%N; [|discriminate]]]|];
    intros T; injection T as <-; reflexivity.
Qed.

Lemma int_go_not_solid s skip base dv t n : int_go int_suffixes s skip base dv = LOk t n -> solid t = false.
Proof.
  unfold int_go. cbv zeta. destruct (span _ (drop skip s)) as [ds rest].
  destruct ds as [|d ds]; [destruct (drop skip s); discriminate|].
  destruct (accum base dv (String d ds) 0%N) as [v|]; [|discriminate].
  destruct (int_token _ v) as [t0|] eqn:T; [|discriminate]. intros [= <- _]. exact (int_token_not_solid _ _ _ T).
Qed.

Lemma digit_tok_not_solid c r t n : is_digit c = true -> tok_at false (String c r) = LOk t n -> solid t = false.
Proof.
  intros Hd. cbn [Lexer.tok_at]. rewrite Hd.
  assert (F : forall t n, lex_float (String c r) = LOk t n -> solid t = false).
  { intros t0 n0. rewrite lex_float_unfold. destruct (span is_digit (String c r)) as [whole [|d r2]]; [apply float_rest_not_solid|].
    destruct (Ascii.eqb d "."); [destruct (span is_digit r2)|]; apply float_rest_not_solid. }
  destruct (lex_float (String c r)) as [t0 n0|e k]; [intros H; inversion H; subst; exact (F _ _ eq_refl)|].
  destruct e; try discriminate. rewrite lex_int_unfold.
  destruct (starts_with "0x" _); [apply int_go_not_solid|].
  destruct r as [|d r']; [apply int_go_not_solid|]. destruct (_ && _); apply int_go_not_solid.
Qed.

(* How a solid token is read: one walk through the choices of token_intermediate.  Each case gives the recogniser
   that produced the token as an equation for every rest r', so that the same reading can be replayed in front of
   another continuation. *)
Lemma solid_tok_inv c r t n : tok_at false (String c r) = LOk t n -> solid t = true ->
  (is_alpha_ c = true /\ forall r', tok_at false (String c r') = lex_word (String c r')) \/
  (c = """"%char /\ forall r', tok_at false (String c r') = lex_string (String c r')) \/
  (is_alpha_ c = false /\
   ((Ascii.eqb c " " || Ascii.eqb c "009") = false /\ Ascii.eqb c "010" = false /\ Ascii.eqb c "\" = false) /\
   Ascii.eqb c "/" && starts_with "/" r = false /\ Ascii.eqb c "/" && starts_with "*" r = false /\
   forall r', Ascii.eqb c "/" && starts_with "/" r' = false -> Ascii.eqb c "/" && starts_with "*" r' = false ->
     tok_at false (String c r') = match lex_symbol c r' with Some (t, n) => LOk t n | None => LErr UnexpectedBytes 0 end).
Proof.
  intros H St.
  destruct (is_digit c) eqn:Hd; [rewrite (digit_tok_not_solid c r t n Hd H) in St; discriminate|].
  cbn [Lexer.tok_at] in H. rewrite Hd in H.
  destruct (is_alpha_ c) eqn:Ha.
  { left. split; [reflexivity|]. intros r'. cbn [Lexer.tok_at]. rewrite Hd, Ha. reflexivity. }
  right. cbn [andb] in H.
  destruct (Ascii.eqb c " " || Ascii.eqb c "009") eqn:W1; [inversion H; subst; discriminate|].
  destruct (Ascii.eqb c "010") eqn:W2; [inversion H; subst; discriminate|].
  destruct (Ascii.eqb c "013") eqn:W3.
  { exfalso. destruct r as [|d r']; [discriminate|]. destruct (Ascii.eqb d "010"); inversion H; subst; discriminate. }
  destruct (Ascii.eqb c "\") eqn:W4.
  { exfalso. destruct r as [|d r']; [discriminate|].
    destruct (Ascii.eqb d "010"); [inversion H; subst; discriminate|].
    destruct r' as [|e r'']; [discriminate|]. destruct (Ascii.eqb d "013" && Ascii.eqb e "010"); inversion H; subst; discriminate. }
  destruct (Ascii.eqb c "/" && starts_with "/" r) eqn:C1; [inversion H; subst; discriminate|].
  destruct (Ascii.eqb c "/" && starts_with "*" r) eqn:C2.
  { exfalso. destruct (block_end (drop 1 r)); inversion H; subst; discriminate. }
  destruct (Ascii.eqb c """") eqn:Q.
  { left. apply Ascii.eqb_eq in Q. subst c. split; reflexivity. }
  destruct (Ascii.eqb c "<") eqn:LA; [inversion H; subst; discriminate|].
  destruct (Ascii.eqb c ">") eqn:RA; [inversion H; subst; discriminate|].
  right. repeat split; try reflexivity.
  intros r' C1' C2'. cbn [Lexer.tok_at]. rewrite Hd, Ha, W1, W2, W3, W4, C1', C2', Q, LA, RA. reflexivity.
Qed.

Lemma lex_word_local a b t w b' : lex_word (a ++ b) = LOk t (slen a) -> is_ident_char w = false ->
  lex_word (a ++ String w b') = LOk t (slen a).
Proof.
  unfold Lexer.lex_word. intros H Wi.
  assert (Sp := span_exact is_ident_char a b). destruct (span is_ident_char (a ++ b)) as [w0 r0]. cbn [fst] in Sp.
  inversion H as [[Ht Hl]]. destruct (Sp Hl) as [-> A]. rewrite (span_stop is_ident_char a w b' A Wi). reflexivity.
Qed.

(* the closing quote is the last character of the token *)
Lemma lex_quoted_local close mk e1 e2 e3 c a' b t x :
  lex_quoted utf8_ok close mk e1 e2 e3 (String c (a' ++ b)) = LOk t (S (slen a')) ->
  lex_quoted utf8_ok close mk e1 e2 e3 (String c (a' ++ x)) = LOk t (S (slen a')).
Proof.
  unfold Lexer.lex_quoted. cbn [drop]. intros H.
  destruct (index_of close (a' ++ b)) as [pos|] eqn:I; [|discriminate].
  assert (P : pos + 2 = S (slen a')).
  { destruct (negb (utf8_ok _)); [discriminate|]. destruct (contains _ _); [discriminate|]. inversion H. reflexivity. }
  rewrite (index_of_app close a' b pos I ltac:(lia) x).
  cbn [substring] in *. rewrite (substring_app pos a' x) by lia. rewrite (substring_app pos a' b) in H by lia.
  exact H.
Qed.

Lemma lex_symbol_sym c r t n : lex_symbol c r = Some (t, n) -> exists v, t = TSym v.
Proof.
  unfold Lexer.lex_symbol. destruct (find _ symbols) as [[[[bb t1] teq] tdbl]|]; [|discriminate].
  intros H.
  repeat match type of H with
         | context [match ?x with _ => _ end] => destruct x
         | context [if ?x then _ else _] => destruct x
         end; inversion H; eexists; reflexivity.
Qed.

Lemma lex_symbol_local c a' b v w b' :
  lex_symbol c (a' ++ b) = Some (TSym v, S (slen a')) ->
  Ascii.eqb w "=" = false -> Ascii.eqb w c = false ->
  lex_symbol c (a' ++ String w b') = Some (TSym v, S (slen a')).
Proof.
  unfold Lexer.lex_symbol. destruct (find _ symbols) as [[[[bb t1] teq] tdbl]|]; [|discriminate].
  intros H W1 W2. destruct a' as [|d a'']; cbn [append slen String.length] in *.
  - (* the token is the one character: whatever follows did not extend it, w does not either *)
    assert (R : Some (TSym t1, 1) = Some (TSym v, 1)).
    { destruct b as [|d r]; [exact H|].
      destruct teq as [t|]; [destruct (Ascii.eqb d "="); [inversion H|]|];
        destruct tdbl as [t2|]; try exact H; destruct (Ascii.eqb d c); try exact H; inversion H. }
    rewrite W1. destruct teq, tdbl; rewrite ?W2; exact R.
  - (* two characters: decided by the second one, which is part of the token *)
    destruct teq as [t|]; [destruct (Ascii.eqb d "="); [exact H|]|];
      destruct tdbl as [t2|]; try exact H; destruct (Ascii.eqb d c); exact H.
Qed.

Definition is_endline (t : tok) : bool := match t with TEndline => true | _ => false end.

(* TokenStream::read_to_end without the spans *)
Inductive Lexes : string -> bool -> list tok -> Prop :=
| LexEnd last : Lexes "" last (if last then [] else [TEndline])
| LexTok c r last t n ts :
    tok_at false (String c r) = LOk t n -> Lexes (drop n (String c r)) (is_endline t) ts -> Lexes (String c r) last (t :: ts).

Definition toks (ts : list (tok * nat * nat)) : list tok := map (fun x => fst (fst x)) ts.
Definition strip (l : list tok) : list tok := filter (fun t => negb (is_ws t)) l.

Lemma strip_app a b : strip (a ++ b) = (strip a ++ strip b)%list.
Proof. apply filter_app. Qed.

Lemma strip_congr p l l' : strip l' = strip l -> strip (p ++ l') = strip (p ++ l).
Proof. intros H. rewrite !strip_app, H. reflexivity. Qed.

Lemma toks_snoc x acc : toks (rev (x :: acc)) = (toks (rev acc) ++ [fst (fst x)])%list.
Proof. apply map_app. Qed.

Lemma lex_all_sound fuel : forall s off last acc ts,
  lex_all fuel s off last acc = SOk ts -> exists l, toks ts = (toks (rev acc) ++ l)%list /\ Lexes s last l.
Proof.
  induction fuel as [|fuel IH]; intros s off last acc ts H; [discriminate|]. cbn [Lexer.lex_all] in H.
  destruct s as [|c r].
  - destruct last; inversion H; subst.
    + exists []. split; [rewrite app_nil_r; reflexivity|apply (LexEnd true)].
    + exists [TEndline]. split; [apply toks_snoc | apply (LexEnd false)].
  - destruct (tok_at false (String c r)) as [t n|e k] eqn:T; [|discriminate].
    apply IH in H as (l & E & L). exists (t :: l). split.
    + rewrite E, toks_snoc, <- app_assoc. reflexivity.
    + eapply LexTok; [exact T|]. destruct t; exact L.
Qed.

Lemma lex_all_complete s last l : Lexes s last l -> forall fuel off acc, slen s < fuel ->
  exists ts, lex_all fuel s off last acc = SOk ts /\ toks ts = (toks (rev acc) ++ l)%list.
Proof.
  induction 1 as [last|c r last t n ts T L IH]; intros fuel off acc Hf.
  - destruct fuel as [|fuel]; [lia|]. cbn [Lexer.lex_all]. destruct last; eexists; split; try reflexivity.
    + rewrite app_nil_r. reflexivity.
    + apply toks_snoc.
  - destruct fuel as [|fuel]; [lia|]. cbn [Lexer.lex_all]. rewrite T.
    assert (B : bounded (String c r) (tok_at false (String c r))) by (apply tok_at_bounded; discriminate).
    rewrite T in B. cbn [bounded] in B.
    destruct (IH fuel (off + n) ((t, off, off + n) :: acc)) as (ts' & E & M).
    { rewrite drop_len. lia. }
    exists ts'. split.
    + rewrite <- E. destruct t; reflexivity.
    + rewrite M, toks_snoc, <- app_assoc. reflexivity.
Qed.

Lemma lex_file_Lexes s spans : lex_file s = SOk spans -> Lexes s true (toks spans).
Proof. intros H. destruct (lex_all_sound _ _ _ _ _ _ H) as (l & E & L). rewrite E. exact L. Qed.

Lemma Lexes_lex_file s l : Lexes s true l -> exists spans, lex_file s = SOk spans /\ toks spans = l.
Proof. intros L. exact (lex_all_complete _ _ _ L (S (slen s)) 0 [] (Nat.lt_succ_diag_r _)). Qed.

Lemma lex_file_lift s s' :
  (forall l, Lexes s true l -> exists l', Lexes s' true l' /\ strip l' = strip l) ->
  forall spans, lex_file s = SOk spans ->
  exists spans', lex_file s' = SOk spans' /\ strip (toks spans') = strip (toks spans).
Proof.
  intros F spans H. destruct (F _ (lex_file_Lexes s spans H)) as (l' & L' & S').
  destruct (Lexes_lex_file s' l' L') as (sp & E & <-). exists sp. split; assumption.
Qed.

Lemma Lexes_step s last t n : tok_at false s = LOk t n ->
  forall l, Lexes s last l <-> exists ts, l = t :: ts /\ Lexes (drop n s) (is_endline t) ts.
Proof.
  intros T l. destruct s as [|c r]; [discriminate|]. split.
  - intros L. inversion L as [|c0 r0 last0 t0 n0 ts0 T0 L0]; subst. rewrite T in T0. inversion T0; subst. eauto.
  - intros (ts & -> & L). econstructor; eassumption.
Qed.

(* the flag only decides whether an empty rest gets the synthetic line end *)
Lemma lexes_flag s l1 ts : Lexes s l1 ts -> forall l2, exists ts', Lexes s l2 ts' /\ strip ts' = strip ts.
Proof.
  destruct 1 as [last|c r last t n ts T L]; intros l2.
  - exists (if l2 then [] else [TEndline]). split; [constructor|]. destruct last, l2; reflexivity.
  - exists (t :: ts). split; [econstructor; eassumption|reflexivity].
Qed.

Lemma lexes_nonempty_flag c r l1 l2 l : Lexes (String c r) l1 l -> Lexes (String c r) l2 l.
Proof. intros L. inversion L; subst. econstructor; eassumption. Qed.

Lemma blank_token w b : blank w -> tok_at false (String w b) = LOk (ws_tok w) 1.
Proof. intros [ -> | [ -> | -> ] ]; reflexivity. Qed.

(* Frames: p lexes to the tokens tp in front of every continuation of class B, and hands over with flag fl.
   Stated as an equivalence, so that one fact serves for building the token list of p ++ b from that of b and for
   splitting a given token list of p ++ b. *)
Definition Frame (B : string -> Prop) (p : string) (tp : list tok) (fl : bool) : Prop :=
  forall b, B b -> forall last l, Lexes (p ++ b) last l <-> exists tr, l = (tp ++ tr)%list /\ Lexes b fl tr.

Definition starts (nxt : ascii) (b : string) : Prop := exists r, b = String nxt r.

Lemma frame_nil nxt fl : Frame (starts nxt) "" [] fl.
Proof.
  intros b (r & ->) last l. cbn [append app]. split.
  - intros L. exists l. split; [reflexivity | exact (lexes_nonempty_flag _ _ _ _ _ L)].
  - intros (tr & -> & L). exact (lexes_nonempty_flag _ _ _ _ _ L).
Qed.

Lemma frame_tok (B : string -> Prop) a t :
  (forall b, B b -> tok_at false (a ++ b) = LOk t (slen a)) -> Frame B a [t] (is_endline t).
Proof. intros T b Hb last l. rewrite (Lexes_step _ last t _ (T b Hb)), drop_app. reflexivity. Qed.

Lemma frame_app (B1 B2 : string -> Prop) p q tp tq f1 f2 :
  Frame B1 p tp f1 -> Frame B2 q tq f2 -> (forall b, B2 b -> B1 (q ++ b)) -> Frame B2 (p ++ q) (tp ++ tq) f2.
Proof.
  intros F1 F2 H b Hb last l. rewrite sapp_assoc, (F1 _ (H b Hb)). split.
  - intros (tr & -> & L). apply (F2 b Hb) in L as (tr' & -> & L). exists tr'. rewrite app_assoc. auto.
  - intros (tr & -> & L). exists (tq ++ tr)%list. rewrite app_assoc. split; [reflexivity|]. apply (F2 b Hb). eauto.
Qed.

Lemma frame_cons (B : string -> Prop) a t p tp fl :
  (forall b, B b -> tok_at false (a ++ p ++ b) = LOk t (slen a)) -> Frame B p tp fl -> Frame B (a ++ p) (t :: tp) fl.
Proof.
  intros T F. apply (frame_app (fun y => exists b, B b /\ y = p ++ b) B a p [t] tp (is_endline t)); [|exact F|eauto].
  apply frame_tok. intros y (b & Hb & ->). exact (T b Hb).
Qed.

End Trivia.

Arguments solid_tok_inv [keywords reserved_words symbols int_suffixes float_suffixes float_is_zero utf8_ok].
Arguments Lexes_step [keywords reserved_words symbols int_suffixes float_suffixes float_is_zero utf8_ok].
Arguments lexes_flag [keywords reserved_words symbols int_suffixes float_suffixes float_is_zero utf8_ok].
Arguments frame_tok [keywords reserved_words symbols int_suffixes float_suffixes float_is_zero utf8_ok].
Arguments frame_app [keywords reserved_words symbols int_suffixes float_suffixes float_is_zero utf8_ok].
