(* PipelineProofs.v — what the pipeline loop of compile returns. *)
From Coq Require Import List Bool String Lia Arith.
From RV Require Import Pipeline.
Import ListNotations.

Section Proofs.
Variable P : Type.
Variable pname : P -> string.
Variable R E : Type.
Variable build : option P -> R + E.

Notation Compile := (compile P pname R E build).
Notation BuildAll := (build_all P R E build).

Lemma filter_wanted_none pipes : List.filter (wanted P pname None) pipes = pipes.
Proof. induction pipes as [|a l IH]; cbn; [reflexivity | rewrite IH; reflexivity]. Qed.

Lemma filter_wanted_some n pipes :
  List.filter (wanted P pname (Some n)) pipes = List.filter (fun q => String.eqb (pname q) n) pipes.
Proof. reflexivity. Qed.

Lemma build_all_spec ps : forall acc rs,
  BuildAll ps acc = inl rs -> exists xs, rs = rev acc ++ xs /\ Forall2 (fun p x => build (Some p) = inl x) ps xs.
Proof.
  induction ps as [|p r IH]; intros acc rs H; cbn [build_all] in H.
  - inversion H; subst. exists []. rewrite app_nil_r. split; [reflexivity | constructor].
  - destruct (build (Some p)) as [x|e] eqn:B; [|discriminate].
    destruct (IH _ _ H) as (xs & -> & F). exists (x :: xs). cbn [rev]. rewrite <- app_assoc. split; [reflexivity|].
    constructor; assumption.
Qed.

Theorem all_in_source_order pipes rs :
  Compile pipes None false = Done _ _ rs -> Forall2 (fun p x => build (Some p) = inl x) pipes rs.
Proof.
  unfold compile. rewrite filter_wanted_none.
  destruct (BuildAll pipes []) as [xs|e] eqn:B; [|discriminate].
  destruct (Nat.eqb (List.length xs) 0 && negb false); [discriminate|]. intros H. inversion H; subst rs.
  destruct (build_all_spec _ _ _ B) as (ys & -> & F). exact F.
Qed.

Theorem named_is_that_pipeline pipes n rs :
  Compile pipes (Some n) false = Done _ _ rs ->
  exists p x, rs = [x] /\ build (Some p) = inl x /\ List.filter (fun q => String.eqb (pname q) n) pipes = [p].
Proof.
  unfold compile. rewrite filter_wanted_some.
  destruct (BuildAll (List.filter (fun q => String.eqb (pname q) n) pipes) []) as [xs|e] eqn:B; [|discriminate].
  destruct (Nat.ltb_spec 1 (List.length xs)) as [L1|L1]; [discriminate|]. destruct (Nat.eqb_spec (List.length xs) 0) as [L0|L0]; [discriminate|].
  intros Hd. inversion Hd; subst rs. destruct (build_all_spec _ _ _ B) as (ys & -> & F). cbn [rev app] in *.
  destruct F as [|p x ps' ys' Hb F']; [cbn in *; lia|]. destruct F'; [|cbn in *; lia].
  exists p, x. repeat split; assumption.
Qed.

Theorem unknown_name_fails pipes n :
  (forall p, In p pipes -> pname p <> n) -> Compile pipes (Some n) false = NotFound _ _ n.
Proof.
  intros H. unfold compile. rewrite filter_wanted_some.
  assert (Hf : List.filter (fun q => String.eqb (pname q) n) pipes = []).
  { induction pipes as [|a l IH]; [reflexivity|]. cbn [List.filter].
    destruct (String.eqb_spec (pname a) n) as [Eq|_]; [exfalso; apply (H a); [left; reflexivity | exact Eq]|].
    apply IH. intros p Hp. apply H. right. exact Hp. }
  rewrite Hf. reflexivity.
Qed.

Theorem no_pipelines_fails : Compile [] None false = NoPipelines _ _.
Proof. reflexivity. Qed.

Theorem no_pipeline_mode_builds_the_module pipes filter x :
  build None = inl x -> Compile pipes filter true = Done _ _ [x].
Proof. intros H. unfold compile. rewrite H. destruct filter; reflexivity. Qed.

Theorem by_name_equals_position pipes n rs rs_all :
  Compile pipes (Some n) false = Done _ _ rs -> Compile pipes None false = Done _ _ rs_all ->
  exists i p x, rs = [x] /\ nth_error pipes i = Some p /\ pname p = n /\ nth_error rs_all i = Some x.
Proof.
  intros H1 H2. destruct (named_is_that_pipeline _ _ _ H1) as (p & x & -> & Hb & Hf).
  pose proof (all_in_source_order _ _ H2) as F.
  assert (Hin : In p pipes /\ pname p = n).
  { assert (Hp : In p (List.filter (fun q => String.eqb (pname q) n) pipes)) by (rewrite Hf; left; reflexivity).
    apply filter_In in Hp. destruct Hp as [Hp He]. split; [exact Hp | apply String.eqb_eq, He]. }
  destruct Hin as [Hin Hn]. destruct (In_nth_error _ _ Hin) as [i Hi].
  exists i, p, x. repeat split; try assumption.
  clear -F Hi Hb. revert i Hi. induction F as [|q y ps ys Hq F IH]; intros [|i] Hi; cbn in *; try discriminate.
  - inversion Hi; subst q. congruence.
  - apply IH, Hi.
Qed.

End Proofs.
