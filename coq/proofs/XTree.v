(* Conditional groups over lines of every kind: well-nested trees whose leaves are text, #define, #undef, #include,
   #pragma or unknown directives.  CondIncl.xrun performs exactly the leaves of the groups C's rules select, in order,
   up to the first rejected one.  A selected leaf does what xrun does on that line alone (`live`); every leaf is asked
   to leave the condition chain as it found it (`frame`). *)
From Coq Require Import List NArith Bool String.
From RV Require Import Cond CondProofs CondIncl CondInclProofs.
Import ListNotations.
Local Open Scope list_scope.

Inductive xitem :=
| XLeaf (x : xline)
| XCond (g : guard) (body : xitems) (rest : xtail)
with xitems := XNil | XCons (i : xitem) (r : xitems)
with xtail :=
| XEnd
| XElif (c : list ctok) (body : xitems) (rest : xtail)
| XElse (body : xitems).

Scheme xitem_mind := Induction for xitem Sort Prop
  with xitems_mind := Induction for xitems Sort Prop
  with xtail_mind := Induction for xtail Sort Prop.
Combined Scheme xitem_xitems_xtail_ind from xitem_mind, xitems_mind, xtail_mind.

Fixpoint xflat_item (i : xitem) : list xline :=
  match i with
  | XLeaf x => [x]
  | XCond g body rest => XL (guard_line g) :: xflat_items body ++ xflat_tail rest
  end
with xflat_items (its : xitems) : list xline :=
  match its with XNil => [] | XCons i r => xflat_item i ++ xflat_items r end
with xflat_tail (t : xtail) : list xline :=
  match t with
  | XEnd => [XL LEndif]
  | XElif c body rest => XL (LElif c) :: xflat_items body ++ xflat_tail rest
  | XElse body => XL LElse :: xflat_items body ++ [XL LEndif]
  end.

(* what the rest of the file sees: macro table, output, once-set *)
Definition vis := (env * list otok * list string)%type.
Definition st_of (stk : list cstate) (v : vis) : xstate :=
  let '(e, o, once) := v in mkX (mkP stk e o) once.
Definition vis_of (st : xstate) : vis := (p_env (x_p st), p_out (x_p st), x_once st).

Section Tree.
Variable switch : cstate -> bool -> cstate.
Hypothesis Hsw : switch_ok switch.
Variable evalb : env -> list ctok -> bool.
Variable files : string -> option (list xline).
Variable d : nat.
Variable self : string.

Notation evalc := (CondProofs.evalc evalb).
Notation xrun := (CondIncl.xrun switch evalc files d self).

Definition live (v : vis) (x : xline) : vis + xerr :=
  match xrun [x] (st_of [] v) with inl st => inl (vis_of st) | inr e => inr e end.

Definition bindv {A} (r : vis + xerr) (f : vis -> A + xerr) : A + xerr :=
  match r with inl v => f v | inr e => inr e end.

(* C's conditional groups, with the first rejected leaf of a selected group ending the run *)
Fixpoint xsem_item (v : vis) (i : xitem) : vis + xerr :=
  match i with
  | XLeaf x => live v x
  | XCond g body rest =>
      if guard_true evalb (fst (fst v)) g then xsem_items v body else xsem_tail v rest
  end
with xsem_items (v : vis) (its : xitems) : vis + xerr :=
  match its with
  | XNil => inl v
  | XCons i r => bindv (xsem_item v i) (fun v1 => xsem_items v1 r)
  end
with xsem_tail (v : vis) (t : xtail) : vis + xerr :=
  match t with
  | XEnd => inl v
  | XElif c body rest => if evalb (fst (fst v)) c then xsem_items v body else xsem_tail v rest
  | XElse body => xsem_items v body
  end.

(* a leaf is not a conditional directive, and run in a selected group it leaves the chain as it found it *)
Definition leaf_shape (x : xline) : bool := match x with XL l => is_simple l | _ => true end.
Definition frame (x : xline) : Prop :=
  forall stk v, is_active stk = true ->
    xrun [x] (st_of stk v) = match live v x with inl v' => inl (st_of stk v') | inr e => inr e end.

Fixpoint ok_item (i : xitem) : Prop :=
  match i with
  | XLeaf x => leaf_shape x = true /\ frame x
  | XCond _ body rest => ok_items body /\ ok_tail rest
  end
with ok_items (its : xitems) : Prop :=
  match its with XNil => True | XCons i r => ok_item i /\ ok_items r end
with ok_tail (t : xtail) : Prop :=
  match t with
  | XEnd => True
  | XElif _ body rest => ok_items body /\ ok_tail rest
  | XElse body => ok_items body
  end.

Lemma leaf_dead x stk v k : leaf_shape x = true -> is_active stk = false ->
  xrun (x :: k) (st_of stk v) = xrun k (st_of stk v).
Proof.
  intros Hs Hd. destruct v as [[e o] once]. apply (skipped_group_has_no_effect _ _ _ _ _ [x] k); [exact Hd|].
  destruct x as [[]| | | | |]; (discriminate Hs || reflexivity).
Qed.

Lemma leaf_live x stk v k : frame x -> is_active stk = true ->
  xrun (x :: k) (st_of stk v) = bindv (live v x) (fun v' => xrun k (st_of stk v')).
Proof.
  intros Hf Ha. change (x :: k) with ([x] ++ k). rewrite xrun_app, (Hf stk v Ha).
  destruct (live v x); reflexivity.
Qed.

(* conditional directives touch the chain only *)
Lemma xrun_chain_line l stk stk' v k :
  step switch evalc (mkP stk (fst (fst v)) (snd (fst v))) l = inl (mkP stk' (fst (fst v)) (snd (fst v))) ->
  xrun (XL l :: k) (st_of stk v) = xrun k (st_of stk' v).
Proof.
  destruct v as [[e o] once]. cbn [fst snd st_of]. intros H. rewrite xrun_cons, xstep1_XL. cbn [x_p]. rewrite H.
  reflexivity.
Qed.

Lemma xrun_guard g stk v k :
  xrun (XL (guard_line g) :: k) (st_of stk v) =
  xrun k (st_of ((if is_active stk && guard_true evalb (fst (fst v)) g then Enabled else DisabledInner) :: stk) v).
Proof. apply xrun_chain_line, step_guard. Qed.
Lemma xrun_elif c top stk v k :
  xrun (XL (LElif c) :: k) (st_of (top :: stk) v) =
  xrun k (st_of (switch top (if waiting top stk then evalb (fst (fst v)) c else false) :: stk) v).
Proof. apply xrun_chain_line, step_elif. Qed.
Lemma xrun_else top stk v k :
  xrun (XL LElse :: k) (st_of (top :: stk) v) = xrun k (st_of (switch top true :: stk) v).
Proof. apply xrun_chain_line, step_else. Qed.
Lemma xrun_endif top stk v k : xrun (XL LEndif :: k) (st_of (top :: stk) v) = xrun k (st_of stk v).
Proof. apply xrun_chain_line, step_endif. Qed.

(* as CondProofs.performs and finishes, with a rejected leaf of a selected group ending the run *)
Definition xperforms (ls : list xline) (sem : vis -> vis + xerr) : Prop :=
  forall stk v k,
    xrun (ls ++ k) (st_of stk v) = bindv (if is_active stk then sem v else inl v) (fun v' => xrun k (st_of stk v')).
Definition xfinishes (ls : list xline) (sem : vis -> vis + xerr) : Prop :=
  forall top stk v k,
    xrun (ls ++ k) (st_of (top :: stk) v) =
    bindv (if waiting top stk then sem v else inl v) (fun v' => xrun k (st_of stk v')).

Lemma xrun_clause body sb rest sr top stk b v k :
  xperforms body sb -> xfinishes rest sr ->
  xrun (body ++ rest ++ k) (st_of (switch top (if waiting top stk then b else false) :: stk) v) =
  bindv (if waiting top stk then if b then sb v else sr v else inl v) (fun v' => xrun k (st_of stk v')).
Proof.
  intros Hb Hr. destruct (elif_switch switch Hsw top stk b) as [Ha Hw]. rewrite Hb, Ha.
  destruct (waiting top stk), b; cbn [andb negb bindv] in Hw |- *; [destruct (sb v); cbn [bindv]; [|reflexivity]|..];
    rewrite Hr, Hw; reflexivity.
Qed.

Lemma xrun_tree :
  (forall i, ok_item i -> xperforms (xflat_item i) (fun v => xsem_item v i)) /\
  (forall its, ok_items its -> xperforms (xflat_items its) (fun v => xsem_items v its)) /\
  (forall t, ok_tail t -> xfinishes (xflat_tail t) (fun v => xsem_tail v t)).
Proof.
  apply xitem_xitems_xtail_ind.
  - intros x [Hs Hf] stk v k. cbn [xflat_item app xsem_item].
    destruct (is_active stk) eqn:Ha; [apply leaf_live | apply leaf_dead]; assumption.
  - intros g body IHb rest IHr [Wb Wr] stk v k.
    cbn [xflat_item xsem_item app]. rewrite <- app_assoc, xrun_guard, (guard_switch switch Hsw).
    apply (xrun_clause _ _ _ _ DisabledInner _ _ _ _ (IHb Wb) (IHr Wr)).
  - intros _ stk v k. cbn. destruct (is_active stk); reflexivity.
  - intros i IHi r IHr [Wi Wr] stk v k.
    cbn [xflat_items xsem_items]. rewrite <- app_assoc, (IHi Wi).
    destruct (is_active stk) eqn:Ha; [destruct (xsem_item v i); [|reflexivity]|]; cbn [bindv]; rewrite (IHr Wr), Ha;
      reflexivity.
  - intros _ top stk v k. cbn [xflat_tail app xsem_tail]. rewrite xrun_endif.
    destruct (waiting top stk); reflexivity.
  - intros c body IHb rest IHr [Wb Wr] top stk v k.
    cbn [xflat_tail xsem_tail app]. rewrite <- app_assoc, xrun_elif.
    apply (xrun_clause _ _ _ _ _ _ _ _ _ (IHb Wb) (IHr Wr)).
  - intros body IHb Wb top stk v k.
    cbn [xflat_tail xsem_tail app]. rewrite <- app_assoc, xrun_else, (IHb Wb), (active_else switch Hsw). cbn [app].
    destruct (waiting top stk); [destruct (xsem_items v body); [|reflexivity]|]; apply xrun_endif.
Qed.

Lemma simulation :
  (forall i, ok_item i -> forall stk v k,
     (is_active stk = true ->
        xrun (xflat_item i ++ k) (st_of stk v) = bindv (xsem_item v i) (fun v' => xrun k (st_of stk v'))) /\
     (is_active stk = false -> xrun (xflat_item i ++ k) (st_of stk v) = xrun k (st_of stk v))) /\
  (forall its, ok_items its -> forall stk v k,
     (is_active stk = true ->
        xrun (xflat_items its ++ k) (st_of stk v) = bindv (xsem_items v its) (fun v' => xrun k (st_of stk v'))) /\
     (is_active stk = false -> xrun (xflat_items its ++ k) (st_of stk v) = xrun k (st_of stk v))) /\
  (forall t, ok_tail t -> forall stk v k,
     (is_active stk = true ->
        xrun (xflat_tail t ++ k) (st_of (DisabledInner :: stk) v) = bindv (xsem_tail v t) (fun v' => xrun k (st_of stk v'))) /\
     (is_active stk = true -> xrun (xflat_tail t ++ k) (st_of (Enabled :: stk) v) = xrun k (st_of stk v)) /\
     (forall top, dead top stk -> xrun (xflat_tail t ++ k) (st_of (top :: stk) v) = xrun k (st_of stk v))).
Proof.
  destruct xrun_tree as (Hi & Hs & Ht). split; [|split]; intros x W stk v k.
  - rewrite (Hi x W). split; intros ->; reflexivity.
  - rewrite (Hs x W). split; intros ->; reflexivity.
  - repeat split.
    + intros Ha. rewrite (Ht x W). unfold waiting. cbn [cstate_eqb andb]. rewrite Ha. reflexivity.
    + intros _. apply (Ht x W).
    + intros top Hd. rewrite (Ht x W), (dead_waiting top stk Hd). reflexivity.
Qed.

Lemma xrun_items its stk v :
  ok_items its ->
  xrun (xflat_items its) (st_of stk v) =
  bindv (if is_active stk then xsem_items v its else inl v) (fun v' => inl (st_of stk v')).
Proof.
  intros W. rewrite <- (app_nil_r (xflat_items its)), (proj1 (proj2 xrun_tree) its W).
  destruct (if is_active stk then _ else _); [apply xrun_nil | reflexivity].
Qed.

Theorem tree_selects_C_groups its v :
  ok_items its ->
  xrun (xflat_items its) (st_of [] v) =
  match xsem_items v its with inl v' => inl (st_of [] v') | inr e => inr e end.
Proof. apply xrun_items. Qed.

(* preprocess_initial_file on an entry file that is a well-nested tree *)
Theorem tree_file its e0 :
  files self = Some (xflat_items its) -> ok_items its ->
  xrun_file switch evalc files d self e0 =
  match xsem_items (e0, [], []) its with
  | inl (e, o, _) => inl (e, o)
  | inr err => inr err
  end.
Proof.
  intros Hf Hok. unfold xrun_file. rewrite Hf.
  rewrite (tree_selects_C_groups its (e0, [], []) Hok : xrun _ (mkX (mkP [] e0 []) []) = _).
  destruct (xsem_items (e0, [], []) its) as [[[e o] once]|err]; reflexivity.
Qed.

End Tree.

Section Frames.
Variable switch : cstate -> bool -> cstate.
Hypothesis Hsw : switch_ok switch.
Variable evalb : env -> list ctok -> bool.
Variable files : string -> option (list xline).
Notation evalc := (CondProofs.evalc evalb).

Lemma frame_not_include d self x :
  leaf_shape x = true -> (forall f, x <> XInclude f) -> frame switch evalb files d self x.
Proof.
  intros Hs Hni stk [[e o] once] Ha. unfold live, st_of. rewrite !xrun_single.
  destruct x as [l|f| | | |]; cbn [xstep1 xstepk x_p x_once p_stack]; rewrite ?Ha; try reflexivity.
  - rewrite !(step_simple _ _ _ _ _ _ Hs), Ha. reflexivity.
  - destruct (Hni f eq_refl).
Qed.

Lemma frame_include d self f body :
  files f = Some (xflat_items body) -> ok_items switch evalb files d f body ->
  frame switch evalb files (S d) self (XInclude f).
Proof.
  intros Hf Hok stk [[e o] once] Ha. unfold live. rewrite !xrun_single.
  rewrite !xstep1_include, Hf by (try exact Ha; reflexivity). unfold marked. cbn [st_of x_once].
  destruct (existsb (String.eqb f) once); [rewrite !xrun_nil; reflexivity|].
  (* the included tree, run on the chain stk and on the empty chain *)
  pose proof (fun stk' => xrun_items switch Hsw evalb files d f body stk' (e, o, once) Hok) as Hb.
  cbn [st_of] in Hb. rewrite !Hb, Ha. cbn [is_active forallb]. destruct (xsem_items switch evalb files d f (e, o, once) body) as [[[e1 o1] once1]|];
    reflexivity.
Qed.

Lemma frame_include_missing d self f : files f = None -> frame switch evalb files d self (XInclude f).
Proof.
  intros Hf stk [[e o] once] Ha. unfold live. rewrite !xrun_single.
  rewrite !xstep1_include, Hf by (try exact Ha; reflexivity). reflexivity.
Qed.
End Frames.
