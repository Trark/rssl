(* AlphaProofs.v — `pair` succeeds only when the second dump is the first with its locals renamed one-to-one. *)
From Coq Require Import List NArith Bool String Lia.
From RV Require Import Alpha.
Import ListNotations.

(* a one-to-one correspondence: the two lookups are inverse to each other *)
Definition bij (r : corr) : Prop :=
  (forall a b, lookup_l r a = Some b -> lookup_r r b = Some a) /\
  (forall a b, lookup_r r b = Some a -> lookup_l r a = Some b).

Lemma bij_nil : bij [].
Proof. split; intros a b H; discriminate. Qed.

(* over functions, to serve both directions of bij: the two `if`s are lookup_l and lookup_r on (a, b) :: r *)
Lemma inverse_update (f g : N -> option N) a b :
  (forall x y, f x = Some y -> g y = Some x) -> g b = None ->
  forall x y, (if N.eqb x a then Some b else f x) = Some y -> (if N.eqb y b then Some a else g y) = Some x.
Proof.
  intros Hfg Hb x y. destruct (N.eqb_spec x a) as [->|Nx]; intros H.
  - inversion H; subst. rewrite N.eqb_refl. reflexivity.
  - apply Hfg in H. destruct (N.eqb_spec y b) as [->|]; [congruence | exact H].
Qed.

Lemma bij_cons r a b : bij r -> lookup_l r a = None -> lookup_r r b = None -> bij ((a, b) :: r).
Proof.
  intros [H1 H2] Ha Hb. split; intros x y; cbn [lookup_l lookup_r].
  - apply inverse_update; assumption.
  - apply (inverse_update (lookup_r r) (lookup_l r) b a (fun y x => H2 x y) Ha).
Qed.

(* the correspondence only grows, and what it already says stays *)
Definition extends (r r' : corr) : Prop := forall a b, lookup_l r a = Some b -> lookup_l r' a = Some b.

Lemma extends_refl r : extends r r. Proof. intros a b H; exact H. Qed.
Lemma extends_trans r1 r2 r3 : extends r1 r2 -> extends r2 r3 -> extends r1 r3.
Proof. intros A B a b H. apply B, A, H. Qed.
Lemma extends_cons r a b : lookup_l r a = None -> extends r ((a, b) :: r).
Proof.
  intros Ha x y H. cbn [lookup_l]. destruct (N.eqb x a) eqn:E; [|exact H].
  apply N.eqb_eq in E. subst. congruence.
Qed.

Lemma rename_extends r r' t : extends r r' -> (forall a, t = Id a -> lookup_l r a <> None) -> rename r' t = rename r t.
Proof.
  intros E C. destruct t as [a|s]; [|reflexivity]. cbn [rename].
  destruct (lookup_l r a) as [b|] eqn:L; [|exfalso; exact (C a eq_refl L)].
  rewrite (E a b L). reflexivity.
Qed.

(* one step of the walk: the heads agree under a correspondence r1 that extends r, covers the left head, and from
   which the walk goes on *)
Lemma pair_step r pos t1 l1 t2 l2 r' : bij r -> pair r pos (t1 :: l1) (t2 :: l2) = Same r' ->
  exists r1, bij r1 /\ extends r r1 /\ rename r1 t1 = t2 /\ (forall a, t1 = Id a -> lookup_l r1 a <> None) /\
             pair r1 (pos + 1) l1 l2 = Same r'.
Proof.
  intros B H. destruct t1 as [a|s1], t2 as [b|s2]; cbn [pair] in H; try discriminate.
  - destruct (lookup_l r a) as [b'|] eqn:La, (lookup_r r b) as [a'|] eqn:Lb; try discriminate.
    + destruct (N.eqb b b' && N.eqb a a') eqn:E; [|discriminate]. apply andb_true_iff in E as [E _]. apply N.eqb_eq in E. subst b'.
      exists r. cbn [rename]. rewrite La. repeat split; try apply B; [apply extends_refl | | exact H].
      intros x Hx. inversion Hx; subst. congruence.
    + exists ((a, b) :: r). cbn [rename lookup_l]. rewrite N.eqb_refl.
      repeat split; try apply (bij_cons r a b B La Lb); [apply extends_cons, La | | exact H].
      intros x Hx. inversion Hx; subst. cbn [lookup_l]. rewrite N.eqb_refl. discriminate.
  - destruct (String.eqb_spec s1 s2) as [->|]; [|discriminate].
    exists r. repeat split; try apply B; [apply extends_refl | discriminate | exact H].
Qed.

Theorem pair_sound : forall l1 l2 r pos r',
  bij r -> pair r pos l1 l2 = Same r' ->
  bij r' /\ extends r r' /\ map (rename r') l1 = l2 /\ covered r' l1.
Proof.
  induction l1 as [|t1 l1 IH]; intros l2 r pos r' B H.
  - destruct l2; [|discriminate]. inversion H; subst. repeat split; try apply B; [apply extends_refl | intros a []].
  - destruct l2 as [|t2 l2]; [destruct t1; discriminate|].
    destruct (pair_step _ _ _ _ _ _ _ B H) as (r1 & B1 & X1 & R1 & C1 & H1).
    destruct (IH l2 r1 _ r' B1 H1) as (B' & X & M & C). repeat split; try apply B'.
    + exact (extends_trans _ _ _ X1 X).
    + cbn [map]. rewrite (rename_extends r1 r' t1 X C1), R1, M. reflexivity.
    + intros a [->|Ha]; [|exact (C a Ha)]. intros L. destruct (lookup_l r1 a) as [b|] eqn:L1; [|exact (C1 a eq_refl L1)].
      rewrite (X a b L1) in L. discriminate.
Qed.

(* the renaming is one-to-one on the locals of the first dump *)
Corollary pair_injective l1 l2 r' :
  pair [] 0 l1 l2 = Same r' ->
  map (rename r') l1 = l2 /\
  forall a a', In (Id a) l1 -> In (Id a') l1 -> rename r' (Id a) = rename r' (Id a') -> a = a'.
Proof.
  intros H. destruct (pair_sound l1 l2 [] 0%N r' bij_nil H) as (B & _ & M & C). split; [exact M|].
  intros a a' Ha Ha' E. cbn [rename] in E.
  destruct (lookup_l r' a) as [b|] eqn:La; [|exfalso; exact (C a Ha La)].
  destruct (lookup_l r' a') as [b'|] eqn:La'; [|exfalso; exact (C a' Ha' La')].
  inversion E; subst. destruct B as [B1 _]. apply B1 in La, La'. congruence.
Qed.

Lemma lookup_l_in r a b : lookup_l r a = Some b -> In (a, b) r.
Proof.
  induction r as [|[x y] t IH]; cbn [lookup_l In]; [discriminate|].
  destruct (N.eqb_spec a x) as [->|]; intros H; [left; congruence | right; apply IH, H].
Qed.

(* a dump compared with itself is accepted, from any correspondence that is the identity where it is defined *)
Theorem pair_reflexive : forall l r pos, bij r -> (forall a b, lookup_l r a = Some b -> a = b) ->
  exists r', pair r pos l l = Same r'.
Proof.
  induction l as [|t l IH]; intros r pos B I; [exists r; reflexivity|].
  destruct t as [a|s]; cbn [pair].
  - destruct (lookup_l r a) as [b|] eqn:La.
    + pose proof (I a b La). subst. destruct B as [B1 B2]. rewrite (B1 _ _ La). rewrite !N.eqb_refl. cbn [andb].
      apply IH; [split; assumption | exact I].
    + destruct (lookup_r r a) as [a'|] eqn:Lb.
      * destruct B as [B1 B2]. pose proof (B2 _ _ Lb) as L. pose proof (I _ _ L). subst. congruence.
      * apply IH; [apply bij_cons; assumption|].
        intros x y H. cbn [lookup_l] in H. destruct (N.eqb x a) eqn:E; [apply N.eqb_eq in E; inversion H; subst; reflexivity | apply I; exact H].
  - rewrite String.eqb_refl. apply IH; assumption.
Qed.
