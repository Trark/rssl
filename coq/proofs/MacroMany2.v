(* MacroMany2.v — any number of macro uses in one token list, object-like and function-like mixed: each is replaced by its
   replacement list (with the arguments substituted), in order; the text between them stays.  Replacement lists and
   arguments name no macro. *)
From Coq Require Import List Bool String Arith Lia.
From RV Require Import Macro MacroParts MacroSubst MacroScan MacroExp.
Import ListNotations.
Local Open Scope list_scope.

Section Many2.
Variable paste : mtok -> mtok -> option mtok.
Variable defs : list macro.
Notation plain := (plain defs).
Notation simple := (simple defs).

Inductive muse :=
| UObj (p : list mtok) (mi : nat) (m : macro)
| UFn (p : list mtok) (mi : nat) (m : macro) (args : list (list mtok)).

Fixpoint min (us : list muse) : list mtok :=
  match us with
  | [] => []
  | UObj p _ m :: r => p ++ MId (m_name m) :: min r
  | UFn p _ m args :: r => p ++ MId (m_name m) :: MLP :: commas args ++ MRP :: min r
  end.
Fixpoint mout (us : list muse) : list mtok :=
  match us with
  | [] => []
  | UObj p _ m :: r => p ++ m_body m ++ mout r
  | UFn p _ m args :: r => p ++ subst (m_body m) (map trim args) ++ mout r
  end.

Definition muse_ok (dis : list bool) (u : muse) : Prop :=
  match u with
  | UObj p mi m =>
      nth_error defs mi = Some m /\ m_fn m = false /\ nth mi dis false = false /\
      (forall j m', j < mi -> nth_error defs j = Some m' -> String.eqb (m_name m) (m_name m') = false) /\
      plain p /\ plain (m_body m)
  | UFn p mi m args =>
      nth_error defs mi = Some m /\ m_fn m = true /\ nth mi dis false = false /\
      (forall j m', j < mi -> nth_error defs j = Some m' -> String.eqb (m_name m) (m_name m') = false) /\
      plain p /\ forallb (bodyb defs) (m_body m) = true /\
      args <> [] /\ List.length args = m_params m /\ Forall simple args
  end.

(* the scan from any position inside text `done` that is already dealt with *)
Lemma Exp_uses dis post : plain post ->
  forall us done next early lf, plain done -> next <= List.length done -> early <= List.length done ->
    Forall (muse_ok dis) us ->
    Exp paste defs dis (done ++ min us ++ post) next early lf (done ++ mout us ++ post).
Proof.
  intros Hpost. induction us as [|u r IH]; intros done next early lf Hdone Hnext Hearly Hok.
  - apply Exp_plain, plain_app; assumption.
  - inversion Hok as [|? ? Hu Hr]; subst.
    assert (Hsk : forall p, plain p -> plain (skipn early (done ++ p))) by (intros p Hp; apply plain_skipn, plain_app; assumption).
    assert (Hcont : forall p out lf', plain p -> plain out ->
              Exp paste defs dis ((done ++ p) ++ out ++ min r ++ post) (List.length (done ++ p) + List.length out)
                  (List.length (done ++ p)) lf' (done ++ (p ++ out ++ mout r) ++ post)).
    { intros p out lf' Hp Hout.
      replace ((done ++ p) ++ out ++ min r ++ post) with ((done ++ p ++ out) ++ min r ++ post) by (rewrite <- !app_assoc; reflexivity).
      replace (done ++ (p ++ out ++ mout r) ++ post) with ((done ++ p ++ out) ++ mout r ++ post) by (rewrite <- !app_assoc; reflexivity).
      apply IH; try exact Hr; rewrite ?app_length; try lia. repeat apply plain_app; assumption. }
    destruct u as [p mi m|p mi m args]; cbn [min mout].
    + destruct Hu as (Hnth & Hf & Hd & Hfirst & Hp & Hb).
      replace (done ++ (p ++ MId (m_name m) :: min r) ++ post) with ((done ++ p) ++ MId (m_name m) :: min r ++ post)
        by (rewrite <- !app_assoc; reflexivity).
      apply (Exp_obj paste defs dis (done ++ p) mi m _ next early lf (m_body m) _ (conj Hnth Hfirst) Hf Hd (Hsk p Hp));
        try (rewrite app_length; lia); [|apply Hcont; assumption].
      (* the rescan of m's list *)
      rewrite (subst_noarg _ _ (plain_noarg defs _ Hb)). apply Exp_plain, Hb.
    + destruct Hu as (Hnth & Hf & Hd & Hfirst & Hp & Hb & Hne & Hal & Hs).
      destruct (simple_args_Exp paste defs dis args Hs) as (Hbal & Hex).
      pose proof (simple_subst_plain defs m args Hb Hs) as Hsub.
      replace (done ++ (p ++ MId (m_name m) :: MLP :: commas args ++ MRP :: min r) ++ post)
        with ((done ++ p) ++ MId (m_name m) :: MLP :: commas args ++ MRP :: min r ++ post)
        by (rewrite <- !app_assoc; cbn [app]; rewrite <- !app_assoc; reflexivity).
      apply (Exp_fn paste defs dis (done ++ p) mi m args (map trim args) _ next early lf (subst (m_body m) (map trim args)) _
               (conj Hnth Hfirst) Hf Hd Hne Hal Hbal (Hsk p Hp));
        try (rewrite app_length; lia);
        (* the arguments, the rescan of m's list, the rest *)
        [exact Hex | apply Exp_plain, Hsub | apply Hcont; assumption].
Qed.

Theorem every_use_is_replaced us post :
  Forall (muse_ok (map (fun _ => false) defs)) us -> plain post ->
  apply_macros paste defs (min us ++ post) = XOk (mout us ++ post).
Proof. intros Hok Hpost. apply Exp_apply, (Exp_uses _ post Hpost us [] 0 0 None eq_refl (le_n 0) (le_n 0) Hok). Qed.

Theorem plain_text_unchanged toks : plain toks -> apply_macros paste defs toks = XOk toks.
Proof. exact (every_use_is_replaced [] toks (Forall_nil _)). Qed.

Theorem object_macro_is_replaced mi m pre post :
  nth_error defs mi = Some m -> m_fn m = false ->
  (forall j m', j < mi -> nth_error defs j = Some m' -> String.eqb (m_name m) (m_name m') = false) ->
  plain pre -> plain post -> plain (m_body m) ->
  apply_macros paste defs (pre ++ MId (m_name m) :: post) = XOk (pre ++ m_body m ++ post).
Proof.
  intros Hn Hf Hfirst Hpre Hpost Hbody.
  pose proof (every_use_is_replaced [UObj pre mi m] post) as E. cbn [min mout] in E.
  rewrite <- !app_assoc in E. cbn [app] in E. apply E; [|exact Hpost].
  constructor; [|constructor]. repeat split; try assumption. apply nth_all_false.
Qed.

Theorem function_macro_is_substituted mi m pre args post :
  nth_error defs mi = Some m -> m_fn m = true ->
  (forall j m', j < mi -> nth_error defs j = Some m' -> String.eqb (m_name m) (m_name m') = false) ->
  args <> [] -> List.length args = m_params m -> Forall simple args ->
  plain pre -> plain post -> forallb (bodyb defs) (m_body m) = true ->
  apply_macros paste defs (pre ++ MId (m_name m) :: MLP :: commas args ++ MRP :: post) =
  XOk (pre ++ subst (m_body m) (map trim args) ++ post).
Proof.
  intros Hn Hf Hfirst Hne Hlen Hs Hpre Hpost Hbody.
  pose proof (every_use_is_replaced [UFn pre mi m args] post) as E. cbn [min mout] in E.
  rewrite <- !app_assoc in E. cbn [app] in E. rewrite <- !app_assoc in E. cbn [app] in E. apply E; [|exact Hpost].
  constructor; [|constructor]. repeat split; try assumption. apply nth_all_false.
Qed.

End Many2.
