(* C09 — the parser model reads back, as the same tree, the text the printer model gives a well-formed expression
   tree, unless that text has a `>` directly before a `(`. *)
From Coq Require Import List NArith Bool String Ascii Lia.
From RV Require Import Syntax GenSyntax SyntaxTables SyntaxProofs SyntaxBridge SyntaxInst.
Import ListNotations.
Local Open Scope string_scope.

(* table obligations: the tables are regenerated from the sources on every run *)

(* printer and parser spell every operator alike; the parser has no prefix or postfix operator beyond the printer's
   unary operators *)
Theorem C09_spellings_agree :
  forallb (fun r : string * N * string * nat * string => let '(_, _, printed, _, parsed) := r in String.eqb printed parsed) binops = true /\
  forallb (fun r : string * N * string * bool => match r with (name, _, printed, postfix) =>
             match find (fun q : string * string => String.eqb (fst q) name) (if postfix then parser_postfix else parser_prefix) with
             | Some (_, parsed) => String.eqb printed parsed
             | None => false
             end end) unops = true /\
  List.length parser_prefix + List.length parser_postfix = List.length unops.
Proof. vm_compute. repeat split; reflexivity. Qed.

(* no two operators of one parser level share a spelling, nor do two prefix (postfix) operators *)
Theorem C09_spellings_distinct :
  nodupb (fun a b : nat * string => Nat.eqb (fst a) (fst b) && String.eqb (snd a) (snd b))
         (map (fun r : string * N * string * nat * string => let '(_, _, _, l, t) := r in (l, t)) binops) = true /\
  nodupb String.eqb (map snd parser_prefix) = true /\ nodupb String.eqb (map snd parser_postfix) = true.
Proof. vm_compute. repeat split; reflexivity. Qed.

(* expr_pN reads its operands with expr_p(N-1); the conditional is expr_p12 ? expr_p14 : expr_p14, an assignment
   expr_p13 = expr_p14; prefix operators and casts apply to expr_p2; call arguments and subscripts exclude the comma *)
Theorem C09_parser_levels :
  chain = [(3, 2); (4, 3); (5, 4); (6, 5); (7, 6); (8, 7); (9, 8); (10, 9); (11, 10); (12, 11); (15, 14)] /\
  ternary_levels = (12, 14, 14) /\ assign_levels = (13, 14) /\ prefix_levels = (2, 2) /\
  terminators = [("args", "Sequence"); ("paren", "Standard"); ("sub", "Sequence")].
Proof. vm_compute. repeat split; reflexivity. Qed.

(* format_subexpression: which operand is printed on which side, and the parenthesis rule *)
Theorem C09_printer_shape :
  paren_rule_is_standard = true /\ top_call = ("u32::MAX", "Middle") /\
  sub_calls =
  [("Literal", []); ("Identifier", []);
   ("UnaryOperation", [("inner", "prec", "Left"); ("inner", "prec", "Right")]);
   ("BinaryOperation", [("left", "prec", "Left"); ("right", "prec", "Right")]);
   ("TernaryConditional", [("expr_cond", "prec", "Left"); ("expr_true", "prec", "Middle"); ("expr_false", "prec", "Right")]);
   ("ArraySubscript", [("expr_object", "prec", "Left"); ("expr_index", "prec", "Middle")]);
   ("Cast", [("expr", "prec", "Right")]); ("BracedInit", []); ("SizeOf", []);
   ("Member", [("expr", "prec", "Left")]);
   ("Call", [("object", "2", "Left"); ("expr", "17", "CommaList"); ("last", "17", "CommaList")]);
   ("AmbiguousParseBranch", [])].
Proof. vm_compute. repeat split; reflexivity. Qed.

(* in each operand position (outer precedence, side) of format_subexpression the printer leaves unparenthesised
   exactly the precedences of t_precs whose level t_lvN is at most the last argument, the level SyntaxProofs.raw prints
   that operand for.  That the parser reads the operand there is the round trip below, not this statement (subscript
   index: level 1, though expr_p15 reads it). *)
Theorem C09_positions_match_parser_levels :
  (forall o, t_uop o = true -> t_un_post o = true ->
     ctx_ok t_assoc t_lvN t_precs (t_un_prec o) (t_side "UnaryOperation" 0) 1) /\
  (forall o, t_uop o = true -> t_un_post o = false ->
     ctx_ok t_assoc t_lvN t_precs (t_un_prec o) (t_side "UnaryOperation" 1) 2) /\
  (forall o, t_bop o = true ->
     ctx_ok t_assoc t_lvN t_precs (t_bin_prec o) (t_side "BinaryOperation" 0) (lctx t_blv o) /\
     ctx_ok t_assoc t_lvN t_precs (t_bin_prec o) (t_side "BinaryOperation" 1) (rctx t_blv o)) /\
  (ctx_ok t_assoc t_lvN t_precs P_tern (t_side "TernaryConditional" 0) 12 /\
   ctx_ok t_assoc t_lvN t_precs P_tern (t_side "TernaryConditional" 1) 13 /\
   ctx_ok t_assoc t_lvN t_precs P_tern (t_side "TernaryConditional" 2) 13) /\
  (ctx_ok t_assoc t_lvN t_precs P_sub (t_side "ArraySubscript" 0) 1 /\
   ctx_ok t_assoc t_lvN t_precs P_sub (t_side "ArraySubscript" 1) 1) /\
  ctx_ok t_assoc t_lvN t_precs P_mem (t_side "Member" 0) 1 /\
  (ctx_ok t_assoc t_lvN t_precs (outer_of_call 0) (t_side "Call" 0) 1 /\
   ctx_ok t_assoc t_lvN t_precs (outer_of_call 1) (t_side "Call" 1) 13) /\
  ctx_ok t_assoc t_lvN t_precs P_cast (t_side "Cast" 0) 2 /\
  ctx_ok t_assoc t_lvN t_precs top_outer (side_of_name (snd top_call)) 14.
Proof. exact (conj C_post (conj C_pre (conj C_bin (conj C_tern (conj C_sub (conj C_mem (conj C_call (conj C_cast C_top)))))))). Qed.

(* every expression tree that is well formed for the set G of type names (t_wf: its operators are rows of the tables,
   its identifiers are not in G, its cast types are): the parser model, with G deciding between casts and
   parenthesised names, reads the printer model's token text back as the same tree with nothing left over.
   Excluded (known finding template-argument-reading): every text with a `>` directly before a `(`, anywhere. *)
Theorem C09_expression_roundtrip :
  forall (G : string -> bool) (e : expr),
    t_wf G e -> gt_paren (toks (t_print e)) = false ->
    t_parse G (toks (t_print e)) = Ok e [].
Proof. exact t_roundtrip. Qed.

(* the text is SyntaxProofs.raw: an operand stands in parentheses exactly when its level exceeds that of its position.
   Not the least parenthesisation the parser reads back: the position of a subscript index has level 1, so
   `x[(a + b)]`. *)
Theorem C09_printer_is_level_directed :
  forall (G : string -> bool) (e : expr), t_wf G e -> toks (t_print e) = t_raw e.
Proof. exact t_print_raw. Qed.

Definition ex_G (t : string) : bool := String.eqb t "T0".
Definition ex_tree : expr :=
  EBin "Assignment" (ESub (EId "x") (EBin "Sequence" (EId "a") (EId "b")))
    (ETern (EBin "LessThan" (EUn "Minus" (EUn "Minus" (EId "y"))) (ELit true "1"))
           (ECall (EMem (ELit true "1") "m") [EBin "Assignment" (EId "p") (EId "q"); ECast "T0" (EUn "PostfixIncrement" (EId "z"))])
           (EBin "Subtract" (EId "u") (EBin "Subtract" (EId "v") (EId "w")))).

Example C09_example_wf : t_wf ex_G ex_tree /\ gt_paren (toks (t_print ex_tree)) = false.
Proof. split; [vm_compute; intuition reflexivity | vm_compute; reflexivity]. Qed.

Example C09_example_text :
  render (t_print ex_tree) = "x[(a, b)] = - -y < 1 ? (1).m(p = q, (T0)z++) : u - (v - w)".
Proof. vm_compute. reflexivity. Qed.

Example C09_example_parse : t_parse ex_G (toks (t_print ex_tree)) = Ok ex_tree [].
Proof. vm_compute. reflexivity. Qed.

(* the excluded shape is real: the model does not decide it *)
Example C09_template_shape_unmodelled :
  let e := EBin "GreaterThan" (EBin "LessThan" (EId "x") (EId "y")) (EBin "Equality" (EId "z") (EId "w")) in
  render (t_print e) = "x < y > (z == w)" /\ gt_paren (toks (t_print e)) = true /\ t_parse ex_G (toks (t_print e)) = Unm.
Proof. vm_compute. repeat split; reflexivity. Qed.

Print Assumptions C09_spellings_agree.
Print Assumptions C09_spellings_distinct.
Print Assumptions C09_parser_levels.
Print Assumptions C09_printer_shape.
Print Assumptions C09_positions_match_parser_levels.
Print Assumptions C09_expression_roundtrip.
Print Assumptions C09_printer_is_level_directed.
