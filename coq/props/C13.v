(* C13 — compile-time constant evaluation matches run-time (HLSL) semantics.  The theorems, the table obligation and examples. *)
From Coq Require Import List ZArith NArith Bool String Lia.
From RV Require Import EvalSem Evaluator EvaluatorProofs GenEvaluator EnumVals EnumValsProofs ListFacts.
Import ListNotations.
Local Open Scope Z_scope.

Notation impl_eval := (Evaluator.impl_eval unary_table binary_table special_table enum_drop cast_table).

(* table obligation: every arm of evaluate_operator / evaluate_cast regenerated from the source agrees, tag by tag,
   with the reference for every operator of the IR and every pair of operand kinds *)
Theorem C13_tables_agree :
  tables_agree unary_table binary_table special_table enum_drop cast_table = true.
Proof. rewrite tables_agree_rows. vm_compute. reflexivity. Qed.

(* every well-formed constant expression tree (any depth), debug and release builds alike *)
Theorem C13_eval_matches_hlsl : forall (debug : bool) (e : expr),
  wf_expr e -> impl_eval debug e = ref_eval e.
Proof.
  intros debug e W.
  exact (proj1 (impl_eval_is_ref_eval unary_table binary_table special_table enum_drop cast_table
                  C13_tables_agree debug e W)).
Qed.

Definition arith_rows_good : bool :=
  forallb (fun '(_, _, _, s) => match s with
                                | BArith k f o zc => arith_int k && good_arith k f o zc
                                | _ => true
                                end) binary_table.

Theorem C13_arith_rows_good : arith_rows_good = true.
Proof. vm_compute. reflexivity. Qed.

(* the binary integer arithmetic arms (the BArith rows of binary_table) cannot abort, whatever the operands, in debug
   and release builds: overflow, shift counts and MIN / -1 included.  Unary arms and casts are not in this statement. *)
Theorem C13_no_overflow_abort : forall op p1 p2 k f o zc,
  In (op, p1, p2, BArith k f o zc) binary_table ->
  forall (debug : bool) (a b : Z), rust_arith debug k f o zc a b <> ZPanic.
Proof.
  intros op p1 p2 k f o zc Hin debug a b.
  assert (H := C13_arith_rows_good). unfold arith_rows_good in H. rewrite forallb_forall in H.
  specialize (H _ Hin). cbn in H. apply andb_true_iff in H as [_ Hg].
  exact (good_arith_no_panic k f o zc debug a b Hg).
Qed.

(* in the reference, division and modulus by zero are not constants; C13_eval_matches_hlsl carries this to the evaluator *)
Theorem C13_div_by_zero_not_constant : forall k a,
  ref_arith k ODiv a 0 = ZNotConst /\ ref_arith k ORem a 0 = ZNotConst.
Proof. intros k a. destruct k; split; reflexivity. Qed.

(* enum values: for every first value the type checker can hand over (a bool, an untyped integer, an int or uint
   inside its range) and n enumerators without an initialiser after it, the values the type checker computes (typed
   while the sum fits, untyped beyond, then converted to the selected underlying type) are the consecutive integers
   from the first value, in the underlying type their range selects; no abort, and no type exactly when HLSL has none *)
Theorem C13_enum_values_exact : forall first n,
  enum_first_ok first = true -> enum_impl first n = enum_ref first n.
Proof. exact enum_values_exact. Qed.

Example C13_enum_example :
  enum_impl (VInt KInt32 2147483647) 1 = EnumOk KUInt32 [2147483647; 2147483648] /\
  enum_impl (VInt KUInt32 4294967295) 1 = EnumNoType /\
  enum_impl (VBool true) 2 = EnumOk KInt32 [1; 2; 3] /\
  enum_impl (VInt KIntLiteral (-2147483649)) 0 = EnumNoType.
Proof. vm_compute. repeat split. Qed.

(* the reference on the boundary values named by the property (sanity of the trusted definitions) *)
Example C13_ref_int_max_plus_one : ref_arith KInt32 OAdd 2147483647 1 = ZOk (-2147483648).
Proof. vm_compute. reflexivity. Qed.
Example C13_ref_uint_underflow : ref_arith KUInt32 OSub 0 1 = ZOk 4294967295.
Proof. vm_compute. reflexivity. Qed.
Example C13_ref_shift_masks : ref_arith KInt32 OShl 1 32 = ZOk 1 /\ ref_arith KInt32 OShl 1 33 = ZOk 2 /\ ref_arith KUInt32 OShr 4294967295 31 = ZOk 1.
Proof. vm_compute. repeat split. Qed.
Example C13_ref_neg_int_min : ref_neg KInt32 (-2147483648) = ZOk (-2147483648).
Proof. vm_compute. reflexivity. Qed.
Example C13_ref_literals_exact : ref_arith KIntLiteral OMul 18446744073709551615 4294967296 = ZOk 79228162514264337589248983040.
Proof. vm_compute. reflexivity. Qed.

(* non-vacuity: (int)(65536 * 65536) + -(int)7.0 *)
Definition ex_expr : expr :=
  EBin "Add" (ECast (TS "Int32") (EBin "Multiply" (ELit (VInt KIntLiteral 65536)) (ELit (VInt KIntLiteral 65536))))
             (EUn "Minus" (ECast (TS "Int32") (ELit (VF64 KFloatLiteral (f64_of_Z 7))))).
Example C13_example_wf : wf_expr ex_expr.
Proof. unfold ex_expr. cbn [wf_expr wf_cty wfc wfc0]. repeat split; apply (existsb_eqb_In String.eqb String.eqb_eq); reflexivity. Qed.
Example C13_example_value : impl_eval true ex_expr = ROk (VInt KInt32 (-7)).
Proof. vm_compute. reflexivity. Qed.

Print Assumptions C13_tables_agree.
Print Assumptions C13_eval_matches_hlsl.
Print Assumptions C13_arith_rows_good.
Print Assumptions C13_no_overflow_abort.
Print Assumptions C13_div_by_zero_not_constant.
Print Assumptions C13_enum_values_exact.
