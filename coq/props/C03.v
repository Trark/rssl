(* C03 — accepted programs elaborate to well-typed IR; ill-typed programs are rejected.  The theorems and an example.
   `wt` (coq/model/IRType.v) specifies "well typed": a node carries the type Expression::get_type gives it, and is
   consistent when that type is the one its rule derives and every operand has exactly the type the node requires.
   The theorems say what a passed check means.  Not a theorem: that the type checker's output always passes (there is
   no model of the elaborator); the extracted checker is run on the IR of every program the harness type checks, and
   on programs carrying one injected violation. *)
From Coq Require Import List NArith Bool String.
From RV Require Import IRType IRTypeProofs.
Import ListNotations.
Local Open Scope string_scope.
Local Open Scope N_scope.

(* the annotation of every node (what the IR's own rules answer) is the type derived bottom-up *)
Theorem C03_types_are_derived : forall e, wt e = None -> derive e = Some (e_ty e, e_lv e).
Proof. exact wt_annotations_are_derived. Qed.

Theorem C03_every_node_consistent : forall e, wt e = None ->
  forall s, subterm s e -> match s with Node k t lv kids => check_node k t lv kids = None end.
Proof. exact wt_every_node. Qed.

(* plain and compound assignments: the target is an lvalue whose path goes through nothing const, and the value has the
   target's type (no conversion left implicit) *)
Theorem C03_assignment : forall name t lv a b,
  assign_name name = true -> check_node (KOp name) t lv [a; b] = None ->
  e_lv a = true /\ const_path a = false /\ is_const (e_ty a) = false /\ same (e_ty a) (e_ty b) = true /\ t = e_ty a.
Proof.
  intros name t lv a b Hn C. destruct (wt_assignment_operands name t lv a b Hn C) as (W & S & T & _).
  destruct (writable_spec a W) as (L & P & K). repeat split; assumption.
Qed.

Theorem C03_increment : forall name t lv a,
  in_list name ["PrefixIncrement"; "PrefixDecrement"; "PostfixIncrement"; "PostfixDecrement"] = true ->
  check_node (KOp name) t lv [a] = None -> e_lv a = true /\ const_path a = false.
Proof.
  intros name t lv a Hn C. destruct (writable_spec a (wt_increment_operand name t lv a Hn C)) as (L & P & _). split; assumption.
Qed.

(* calls that are not method calls (`KCall false`; a method call, which carries the object as first operand, is not in
   this statement): one operand per parameter, where only parameters with default values (from index nd on) may be left
   out, from the end; each of its parameter's type unless that is a template parameter; a writable lvalue wherever the
   parameter is out or inout *)
Theorem C03_call : forall intrinsic nd params ret t lv args,
  check_node (KCall false intrinsic nd params ret) t lv args = None ->
  Forall2 (fun (p : N * ty) a =>
             (same (e_ty a) (snd p) = true \/ exists i, strip (snd p) = TParam i) /\
             (fst p <> 0 -> writable a = true)) (firstn (List.length args) params) args /\
  (N.to_nat nd <= List.length args <= List.length params)%nat /\ t = ret /\ lv = false.
Proof. exact wt_call_operands. Qed.

(* matrix swizzles name components the matrix has; the result is an lvalue only without a repeated component *)
Theorem C03_matrix_swizzle : forall idx t lv x,
  check_node (KMSwz idx) t lv [x] = None ->
  exists r c s, strip (e_ty x) = TMatrix r c s /\
    forallb (fun i => (i / 4 <? r) && (i mod 4 <? c)) idx = true /\
    lv = (e_lv x && nodupN idx)%bool.
Proof. exact wt_matrix_swizzle. Qed.

Theorem C03_return : forall ret e, wt_stmt ret (SRet (Some e)) = None -> wt e = None /\ same (e_ty e) ret = true.
Proof. exact wt_return. Qed.
Theorem C03_return_nothing : forall ret, wt_stmt ret (SRet None) = None -> strip ret = TVoid.
Proof. exact wt_return_nothing. Qed.
Theorem C03_initialiser : forall ret t e, wt_stmt ret (SVar t (IExpr e)) = None -> wt e = None /\ same (e_ty e) t = true.
Proof. exact wt_initialiser. Qed.

(* non-vacuity: `s.v.x = (float)i + 1.0f` is well typed; the same write through a const struct is not; passing a
        const int for an out parameter is not *)
Definition tf := TScalar KFloat.
Definition ti := TScalar KInt.
Definition ex_lhs (smod : N) : expr :=
  Node (KSwz [0]) tf true [Node (KSMem 7 (TVector 4 tf)) (TVector 4 tf) true [Node KVar (remod smod (TStruct 7)) true []]].
Definition ex_rhs : expr :=
  Node (KOp "Add") tf false [Node KCast tf false [Node KVar ti true []]; Node KLit tf false []].
Definition ex_assign (smod : N) : expr := Node (KOp "Assignment") tf true [ex_lhs smod; ex_rhs].

Example C03_example :
  wt (ex_assign 0) = None /\
  wt (ex_assign 1) = Some "assignment to something that is not a writable lvalue" /\
  wt (Node (KCall false false 1 [(1, ti)] TVoid) TVoid false [Node KVar (TMod 1 ti) true []]) = Some "out / inout argument is not a writable lvalue" /\
  wt (Node (KOp "Add") tf false [Node KVar ti true []; Node KLit tf false []]) = Some "operands of an arithmetic operation have different types".
Proof. vm_compute. repeat split. Qed.

Print Assumptions C03_types_are_derived.
Print Assumptions C03_every_node_consistent.
Print Assumptions C03_assignment.
Print Assumptions C03_increment.
Print Assumptions C03_call.
Print Assumptions C03_return.
Print Assumptions C03_return_nothing.
Print Assumptions C03_initialiser.
Print Assumptions C03_matrix_swizzle.
