(* C08 — compilation is total: the theorems of the property, a non-vacuity example, the table obligation on the abort
   sites and Check sentences citing the theorems of other properties.
   A Gallina function is total, so for every component that has an executable model "returns a result or a
   diagnostic, never aborts, never loops" is the statement that the model never produces its abort / exhaustion
   values.  Stated here from coq/proofs/DriverProofs.v: the file driver with its #include nesting limit.  Cited from their own
   properties: the macro expander, the lexer, the constant evaluator, the name generator.  The rest of the compiler (parser, type checker,
   exporters, formatter) has no model: there the check pins the inventory of abort sites to a reviewed table and
   searches (child processes under a watchdog); that part is NOT a theorem. *)
From Coq Require Import List Bool String ZArith Lia.
From RV Require Import Macro Driver DriverProofs NameGen NameGenProofs GenPanicSites C08Sites.
From RV Require C10 C12 C13 C15.
Import ListNotations.
Local Open Scope string_scope.

(* ---- the file driver: #include nesting is limited, so the driver is structurally recursive (no fuel); whatever the
        files contain — a file that includes itself, cycles, 200 levels of nesting — it ends with a state or a
        diagnostic, never with exhaustion ---- *)
Theorem C08_driver_total :
  forall paste files depth self its st,
    run_d paste files depth self its st <> inr DFuel /\ run_d paste files depth self its st <> inr DHang.
Proof. exact run_d_never_exhausted. Qed.

(* what it computes is what the driver of the C12 model computes (so the C12 theorems speak about it) *)
Theorem C08_driver_refines_C12 :
  forall paste files depth self its st r,
    run_d paste files depth self its st = inl r -> exists fuel, run paste files fuel self its st = inl r.
Proof. exact run_d_refines_run. Qed.

(* a file that includes itself, and two files that include each other, are rejected with the nesting diagnostic *)
Definition ex_files (f : string) : option (list item) :=
  if String.eqb f "self.h" then Some [IText [MId "x"]; IInclude "self.h"]
  else if String.eqb f "a.h" then Some [IInclude "b.h"]
  else if String.eqb f "b.h" then Some [IInclude "a.h"; IText [MId "y"]]
  else None.
Definition ex_paste (a b : mtok) : option mtok := None.

Example C08_self_include_is_rejected :
  preprocess_d ex_paste ex_files "main" [IInclude "self.h"] = inr DTooDeep /\
  preprocess_d ex_paste ex_files "main" [IText [MId "z"]; IInclude "a.h"] = inr DTooDeep.
Proof. vm_compute. split; reflexivity. Qed.

(* ---- macro expansion: never out of fuel, never hanging (C12) ---- *)
Theorem C08_expansion_total :
  forall (paste : mtok -> mtok -> option mtok) (defs : list macro) (toks : list mtok),
    apply_macros paste defs toks <> XFuel /\ apply_macros paste defs toks <> XHang.
Proof.
  intros paste defs toks. pose proof (C12.C12_expansion_terminates paste defs toks) as H.
  destruct (apply_macros paste defs toks); try contradiction; split; discriminate.
Qed.

(* ---- the other modelled components: theorems proved for their own properties ---- *)
Check C10.C10_token_progress.      (* the lexer consumes at least one byte per token: |s|+1 steps *)
Check C10.C10_error_in_file.       (* every lexer diagnostic lies inside the file *)
Check C10.C10_int_exact.           (* integer literals: checked accumulation, no overflow abort *)
Check C13.C13_no_overflow_abort.   (* the constant evaluator never aborts on arithmetic, debug or release *)
Check C15.C15_build_total.         (* the name generator's suffix search always ends *)

(* ---- the unmodelled rest: the abort sites of the workspace (regenerated from the sources on every run) are exactly
        the reviewed ones ---- *)
Theorem C08_abort_sites_are_the_reviewed_ones : panic_sites = pinned_sites.
Proof. reflexivity. Qed.

Print Assumptions C08_driver_total.
Print Assumptions C08_driver_refines_C12.
Print Assumptions C08_expansion_total.
Print Assumptions C08_abort_sites_are_the_reviewed_ones.
