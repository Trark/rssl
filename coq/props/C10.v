(* C10 — lexing is lossless and numeric literals are exact: the theorems of the property, their table obligation and
   non-vacuity examples. *)
From Coq Require Import List ZArith NArith Bool String Ascii Lia Reals.
From Coq Require Import Floats.SpecFloat.
From Flocq Require Import Core IEEE754.BinarySingleNaN.
From RV Require Import Lexer Numbers LexerProofs NumbersProofs GenLexer.
Import ListNotations.

Notation lex := (lex_file keywords reserved_words symbols int_suffixes float_suffixes float_is_zero (fun _ => true)).
Notation tok_at := (Lexer.tok_at keywords reserved_words symbols int_suffixes float_suffixes float_is_zero (fun _ => true)).

(* the token spans are contiguous, in order, start at 0 and end at the file length; the synthetic final
   Endline has an empty span *)
Theorem C10_spans_tile : forall (s : string) ts, lex s = SOk ts -> tiles 0 ts (slen s).
Proof. exact (lex_tiles keywords reserved_words symbols int_suffixes float_suffixes float_is_zero (fun _ => true)). Qed.

(* every token consumes at least one byte and at most what is left *)
Theorem C10_token_progress : forall inc (s : string), s <> EmptyString -> bounded s (tok_at inc s).
Proof. apply tok_at_bounded. Qed.

(* every lexer diagnostic position lies inside the file *)
Theorem C10_error_in_file : forall (s : string) e k, lex s = SErr e k -> k <= slen s.
Proof. exact (lex_error_in_file keywords reserved_words symbols int_suffixes float_suffixes float_is_zero (fun _ => true)). Qed.

(* ---- integer literals: the checked accumulation yields exactly the written value, or rejects it when it
        does not fit in 64 bits (decimal, hexadecimal, octal alike) ---- *)
Theorem C10_int_exact : forall base dv (s : string),
  (1 <= base)%N ->
  accum base dv s 0 =
  if (written_value base dv s 0 <? two64)%N then Some (written_value base dv s 0) else None.
Proof. intros base dv s Hb. apply accum_exact; [exact Hb | reflexivity]. Qed.

(* float literals: dec2f64_core, the core of the reference conversion (Numbers.dec2f64 adds cut-offs for exponents beyond
   +-400, parse_decimal reads the text), gives the double nearest (ties to even) to the decimal value *)
Theorem C10_float_nearest_pos : forall (p : positive) (e : Z), (0 <= e)%Z ->
  let x := IZR (Zpos p * 10 ^ e) in
  if Rlt_bool (Rabs (round radix2 (SpecFloat.fexp 53 1024) (round_mode mode_NE) x)) (bpow radix2 1024)
  then SF2R radix2 (dec2f64_core (Npos p) e) = round radix2 (SpecFloat.fexp 53 1024) (round_mode mode_NE) x
  else dec2f64_core (Npos p) e = S754_infinity false.
Proof. exact dec2f64_core_nearest_pos. Qed.

Theorem C10_float_nearest_neg : forall (p : positive) (e : Z), (e < 0)%Z ->
  let x := (IZR (Zpos p) / IZR (10 ^ (- e)))%R in
  if Rlt_bool (Rabs (round radix2 (SpecFloat.fexp 53 1024) (round_mode mode_NE) x)) (bpow radix2 1024)
  then SF2R radix2 (dec2f64_core (Npos p) e) = round radix2 (SpecFloat.fexp 53 1024) (round_mode mode_NE) x
  else dec2f64_core (Npos p) e = S754_infinity false.
Proof. exact dec2f64_core_nearest_neg. Qed.

Theorem C10_suffix_tables :
  int_suffixes = [([[117%N; 85%N]; [108%N; 76%N]], "Unsigned64"%string); ([[108%N; 76%N]; [117%N; 85%N]], "Unsigned64"%string);
                  ([[117%N; 85%N]], "Unsigned32"%string); ([[108%N; 76%N]], "Signed64"%string)] /\
  float_suffixes = [([104%N; 72%N], "Half"%string); ([102%N; 70%N], "Float"%string); ([108%N; 76%N], "Double"%string)].
Proof. split; reflexivity. Qed.

Example C10_example :
  lex "a<b>>1.5e1f//x"%string =
  SOk [(TId "a", 0, 1); (TLAngle true, 1, 2); (TId "b", 2, 3); (TRAngle true, 3, 4); (TRAngle true, 4, 5);
       (TFloat FFloat "1.5e1", 5, 11); (TComment, 11, 14); (TEndline, 14, 14)]%string.
Proof. vm_compute. reflexivity. Qed.
Example C10_example_value : token_float_bits FFloat "1.5e1" = 1097859072%Z /\ bits64 (float_value "0.0031308") = 4569365555819558681%Z.
Proof. vm_compute. split; reflexivity. Qed.
Example C10_example_reject : lex "18446744073709551616"%string = SErr IntegerLiteralTooLarge 0.
Proof. vm_compute. reflexivity. Qed.

Print Assumptions C10_spans_tile.
Print Assumptions C10_token_progress.
Print Assumptions C10_error_in_file.
Print Assumptions C10_int_exact.
Print Assumptions C10_float_nearest_pos.
Print Assumptions C10_float_nearest_neg.
Print Assumptions C10_suffix_tables.
