(* C16 — overload resolution is order-independent and prefers exact matches.  The theorems of the property, their
   table obligations and non-vacuity examples. *)
From Coq Require Import List NArith Bool String Lia Permutation.
From RV Require Import Overload OverloadProofs OverloadGlue GenLayout GenCasting.
Import ListNotations.
Local Open Scope N_scope.

Notation ety := (Overload.ety scalar).
Notation param := (Overload.param scalar).
Notation signature := (Overload.signature scalar).
Notation find := (Overload.find scalar scalar_eqb nrank NR_Exact scalar_rank vrank VR_Exact VR_Expand VR_Contract).
Notation viable := (Overload.viable scalar scalar_eqb nrank NR_Exact scalar_rank vrank VR_Exact VR_Expand VR_Contract).
Notation resolve := (Overload.resolve nrank nrank_order vrank vrank_eqb worst_to_best).
Notation dominates := (OverloadProofs.dominates nrank nrank_order vrank vorder).
Notation exact_cast := (OverloadProofs.exact_cast nrank nrank_order vrank NR_Exact VR_Exact).
Notation param_ety := (Overload.param_ety scalar).

(* table obligations (tables regenerated from typer/src/casting.rs on every run) *)
Theorem C16_order_is_a_ranking : forall a b, nrank_order a = nrank_order b -> a = b.
Proof. intros a b; destruct a, b; cbn; intros H; try reflexivity; discriminate. Qed.

Theorem C16_exact_is_best : forall r, nrank_order NR_Exact <= nrank_order r.
Proof. exact order_exact_min. Qed.

Theorem C16_vector_ranks_worst_to_best : worst_to_best = [VR_Contract; VR_Expand; VR_Exact].
Proof. exact w2b_eq. Qed.

Theorem C16_only_identical_scalars_are_exact : forall s d, s <> d -> scalar_rank s d <> NR_Exact.
Proof. exact scalar_rank_not_exact. Qed.

Theorem C16_priority_table :
  map (fun d => scalar_rank ST_Int32 d) [ST_UInt32; ST_Bool; ST_Float16; ST_Float32; ST_Float64] =
    [NR_Promotion; NR_IntToBool; NR_Conversion; NR_Conversion; NR_Conversion] /\
  map (fun d => scalar_rank ST_Float16 d) [ST_Float32; ST_Float64; ST_Int32] = [NR_Promotion; NR_PromotionTwice; NR_Conversion] /\
  map (fun d => scalar_rank ST_Float32 d) [ST_Float64; ST_Float16; ST_Int32] = [NR_Promotion; NR_Conversion; NR_Conversion] /\
  map (fun d => scalar_rank ST_IntLiteral d) [ST_Int32; ST_UInt32; ST_Bool; ST_Float32] =
    [NR_Promotion; NR_Promotion; NR_IntToBool; NR_Conversion].
Proof. repeat split. Qed.

(* the verdict (selected id / ambiguous / no match) is invariant under reordering the declarations *)
Theorem C16_order_independent : forall (sigs sigs' : list signature) (args : list ety),
  Permutation sigs sigs' -> resolve (viable sigs args) = resolve (viable sigs' args).
Proof. intros sigs sigs' args P. apply resolve_perm, viable_perm, P. Qed.

(* a parameter of exactly the argument's type needs no conversion (an out / inout parameter binds a non-const lvalue: the signature's parameter type carries no const) ... *)
Theorem C16_identical_type_is_exact : forall (a : ety) (p : param),
  e_scalar _ a = p_scalar _ p -> e_dim _ a = p_dim _ p ->
  (p_out _ p = true -> e_lvalue _ a = true /\ e_const _ a = false) ->
  find a (param_ety p) = Some (NR_Exact, VR_Exact).
Proof.
  intros a p Hs Hd Ho. unfold Overload.find, Overload.dim_cast, Overload.param_ety. cbn [e_scalar e_dim e_lvalue e_const].
  rewrite <- Hs, <- Hd. rewrite (proj2 (scalar_eqb_spec _ _) eq_refl), dim_eqb_refl. cbn [andb].
  destruct (p_out _ p) eqn:Po.
  - destruct (Ho eq_refl) as [Hl Hc]. rewrite Hl, Hc. reflexivity.
  - rewrite andb_false_r. reflexivity.
Qed.

(* ... and a viable candidate all of whose parameters need no conversion is selected, provided every
   other viable candidate needs some conversion (the declarations carry pairwise distinct ids) *)
Theorem C16_exact_wins : forall (sigs : list signature) (args : list ety) c,
  NoDup (map (s_id _) sigs) -> In c (viable sigs args) -> Forall exact_cast (snd c) ->
  (forall d, In d (viable sigs args) -> fst d <> fst c -> Exists (fun x => ~ exact_cast x) (snd d)) ->
  resolve (viable sigs args) = Selected (fst c).
Proof.
  intros sigs args c Hnd.
  apply (exact_wins _ _ _ _ _ vrank_eqb_spec _ order_exact_min vorder _ _ _ w2b_eq vorder_vals vrank_cases _ (List.length args));
    [apply viable_nodup, Hnd | apply viable_length].
Qed.

(* the selected candidate is not dominated by any viable candidate (declarations with pairwise distinct ids) *)
Theorem C16_not_dominated : forall (sigs : list signature) (args : list ety) id,
  NoDup (map (s_id _) sigs) -> resolve (viable sigs args) = Selected id ->
  exists c, In c (viable sigs args) /\ fst c = id /\
            forall d, In d (viable sigs args) -> ~ dominates (snd d) (snd c).
Proof.
  intros sigs args id Hnd Hr. apply resolve_selected in Hr as (c & Hf & Hid).
  assert (Hc : In c (finalists (viable sigs args))) by (rewrite Hf; left; reflexivity).
  exists c. repeat split; [apply finalists_in, proj1, winners_in in Hc; apply Hc | exact Hid |].
  apply (finalist_not_dominated _ _ _ _ _ vrank_eqb_spec vorder _ _ _ w2b_eq vorder_vals vrank_cases _ (List.length args));
    [apply viable_nodup, Hnd | apply viable_length | exact Hc].
Qed.

(* non-vacuity: f(int), f(uint), f(float2) called with an int lvalue, a float rvalue, an int literal *)
Definition sg (id : N) (ps : list param) : signature := mkSig _ id ps (List.length ps).
Definition pin (s : scalar) (d : dim) : param := mkParam _ s d false false.
Definition ex_sigs : list signature :=
  [sg 0 [pin ST_Int32 DScalar]; sg 1 [pin ST_UInt32 DScalar]; sg 2 [pin ST_Float32 (DVec 2)]].

Example C16_example_exact : resolve (viable ex_sigs [mkEty _ ST_Int32 DScalar true false]) = Selected 0.
Proof. vm_compute. reflexivity. Qed.
Example C16_example_expand : resolve (viable ex_sigs [mkEty _ ST_Float32 DScalar false false]) = Selected 2.
Proof. vm_compute. reflexivity. Qed.
Example C16_example_ambiguous : resolve (viable ex_sigs [mkEty _ ST_IntLiteral DScalar false false]) = Ambiguous.
Proof. vm_compute. reflexivity. Qed.

Print Assumptions C16_order_is_a_ranking.
Print Assumptions C16_exact_is_best.
Print Assumptions C16_vector_ranks_worst_to_best.
Print Assumptions C16_only_identical_scalars_are_exact.
Print Assumptions C16_priority_table.
Print Assumptions C16_order_independent.
Print Assumptions C16_identical_type_is_exact.
Print Assumptions C16_exact_wins.
Print Assumptions C16_not_dominated.
