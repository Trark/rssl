(* C05 — reflection metadata agrees with the emitted source.  The theorems only; the records both the annotation
   printers and the metadata builders read are the bindings of the C06 model (tables regenerated in GenBindings.v). *)
From Coq Require Import List NArith Bool String Lia.
From RV Require Import ListFacts Bindings BindingsProofs MetadataProofs GenBindings.
Import ListNotations.
Local Open Scope N_scope.

Notation decl := (Bindings.decl okind).
Notation assign := (Bindings.assign okind metal2 is_addr).
Notation binding_ok := (BindingsProofs.binding_ok okind metal2 is_addr).

(* ---- which declarations have a binding record (the record from which the annotation and the metadata entry are
        printed; the printing itself is not modelled): constant buffers, and globals of an object type that are extern
        and, where the target gives static samplers no slot, not a static sampler; such a declaration has one record,
        in its own or the default group, any other has none ---- *)
Theorem C05_one_entry_per_bound_declaration :
  forall p dflt (ds : list decl),
    Forall2 (fun d ob =>
               match ob with
               | None => bindable okind p d = false
               | Some b => bindable okind p d = true /\ b_set b = group_of okind dflt d
               end) ds (fst (assign p dflt ds)).
Proof.
  intros p dflt ds. apply (forall2_impl (binding_ok p dflt)); [|apply assign_bindings_ok].
  intros d [b|] H; [|exact H]. destruct H as (H1 & H2 & _). split; assumption.
Qed.

Theorem C05_static_globals_have_no_entry :
  forall p (d : decl), d_extern d = false -> d_kind d <> KCBuffer -> bindable okind p d = false.
Proof. intros p d He Hk. unfold bindable. destruct (d_kind d); [congruence | rewrite He; reflexivity | reflexivity]. Qed.

(* ---- the inline descriptor struct the HLSL exporter prints for a group: 8 bytes per inline binding at the binding's
        offset, offsets 0, 8, 16, ..., total size equal to the size in the metadata; the exporter's two assertions hold
        for every declaration list (every parameter record without the Metal slot layout, as all HLSL targets) ---- *)
Theorem C05_inline_descriptor_struct :
  forall p dflt (ds : list decl) g l z,
    metal_slot_layout p = false ->
    In (g, l, z) (snd (assign p dflt ds)) ->
    let ranges := inline_ranges g (fst (assign p dflt ds)) in
    z = 8 * N.of_nat (List.length ranges) /\
    (forall o len, In (o, len) ranges -> len = 8 /\ o + 8 <= z) /\
    tiles 0 ranges.
Proof. exact (inline_descriptor_struct okind metal2 is_addr). Qed.

Theorem C05_hlsl_targets_have_no_metal_layout :
  forallb (fun r : string * params => if String.prefix "Hlsl" (fst r) then negb (metal_slot_layout (snd r)) else true) target_params = true.
Proof. vm_compute. reflexivity. Qed.

Print Assumptions C05_one_entry_per_bound_declaration.
Print Assumptions C05_static_globals_have_no_entry.
Print Assumptions C05_inline_descriptor_struct.
Print Assumptions C05_hlsl_targets_have_no_metal_layout.
