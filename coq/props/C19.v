(* C19 — layout-consistency validation is sound.  The theorems and the witnesses against the unrepaired checker. *)
From Coq Require Import List NArith Bool String Lia.
From RV Require Import Layout LayoutProofs GenLayout.
Import ListNotations.
Local Open Scope N_scope.

Notation ty := (Layout.ty scalar).
Notation check := (Layout.check scalar ssize sbool array_min).
Notation spec_total := (Layout.spec_total scalar ssize sbool).
Notation spec_fields := (Layout.spec_fields scalar ssize sbool).
Notation spec_sa := (Layout.spec_sa scalar ssize sbool).

(* table obligation: the scalar sizes the reference rules assume *)
Theorem C19_scalar_sizes :
  map (fun s => (scalar_name s, ssize s, sbool s)) all_scalars =
  [("Bool"%string, Some 4, true); ("IntLiteral"%string, None, false); ("Int32"%string, Some 4, false);
   ("UInt32"%string, Some 4, false); ("FloatLiteral"%string, None, false); ("Float16"%string, Some 2, false);
   ("Float32"%string, Some 4, false); ("Float64"%string, Some 8, false)].
Proof. vm_compute. reflexivity. Qed.

(* the element stride of every array with at least two elements takes part in the comparison *)
Theorem C19_array_stride_recorded : array_min = 1.
Proof. reflexivity. Qed.

Theorem C19_check_sound : forall t : ty,
  check t = Accept ->
  exists z, spec_total Hlsl t = Some z /\ spec_total Metal t = Some z /\
            spec_fields Hlsl t 0 = spec_fields Metal t 0.
Proof. exact (check_sound scalar ssize sbool array_min C19_array_stride_recorded). Qed.

(* a size rejection reports the true sizes and alignments *)
Theorem C19_check_reports_truth : forall (t : ty) hs ha ms ma,
  check t = Mismatch hs ha ms ma ->
  spec_total Hlsl t = Some hs /\ spec_total Metal t = Some ms /\ hs <> ms /\
  option_map snd (spec_sa Hlsl t) = Some ha /\ option_map snd (spec_sa Metal t) = Some ma.
Proof. exact (check_reports_truth scalar ssize sbool array_min). Qed.

(* The implementation computes sizes in u32 with checked operations.  `check32` is `check` on a type all of whose
   running sizes are below 2^32 (`fits`) and answers "unknown size" on any other.  Of a type answered "unknown size" the
   two theorems say nothing; that `fits` fails exactly where a checked operation of the implementation overflows is
   tested against the implementation (sizes around 2^32 among the inputs), not proved. *)
Theorem C19_check32_sound : forall t : ty,
  check32 scalar ssize sbool array_min t = Accept ->
  exists z, spec_total Hlsl t = Some z /\ spec_total Metal t = Some z /\
            spec_fields Hlsl t 0 = spec_fields Metal t 0.
Proof. exact (check32_sound scalar ssize sbool array_min C19_array_stride_recorded). Qed.

Theorem C19_check32_reports_truth : forall (t : ty) hs ha ms ma,
  check32 scalar ssize sbool array_min t = Mismatch hs ha ms ma ->
  spec_total Hlsl t = Some hs /\ spec_total Metal t = Some ms /\ hs <> ms /\
  option_map snd (spec_sa Hlsl t) = Some ha /\ option_map snd (spec_sa Metal t) = Some ma.
Proof. exact (check32_reports_truth scalar ssize sbool array_min). Qed.

(* non-vacuity and the two witnesses that the unrepaired checker accepted *)
Definition f1 := TScalar ST_Float32.
Definition f2 := TVec ST_Float32 2.
Definition f4 := TVec ST_Float32 4.
Fixpoint mk (l : list ty) : Layout.tys scalar := match l with [] => TNil | t :: r => TCons t (mk r) end.

Example C19_accepts_consistent :
  check (TStruct (mk [f4; TStruct (mk [f2; f2]); TArr (TScalar ST_UInt32) 2; TScalar ST_Float64])) = Accept.
Proof. vm_compute. reflexivity. Qed.

Example C19_witness_nested_padding :   (* {struct{float2;float}; float}: 16 bytes in HLSL, 24 in Metal *)
  check (TStruct (mk [TStruct (mk [f2; f1]); f1])) = Mismatch 16 4 24 8.
Proof. vm_compute. reflexivity. Qed.

Example C19_witness_same_size_other_offsets :   (* {float; float2; double}: 24 bytes in both, float2 at 4 vs 8 *)
  check (TStruct (mk [f1; f2; TScalar ST_Float64])) = OffsetMismatch 4 8.
Proof. vm_compute. reflexivity. Qed.

Print Assumptions C19_scalar_sizes.
Print Assumptions C19_array_stride_recorded.
Print Assumptions C19_check_sound.
Print Assumptions C19_check_reports_truth.
Print Assumptions C19_check32_sound.
Print Assumptions C19_check32_reports_truth.
