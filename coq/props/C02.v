(* C02 — MSL export preserves the meaning of every accepted program.  The theorems and their examples.
   What is specific to the Metal exporter is proved on models: which functions receive which globals as parameters
   (on the usage fixpoint of C07), that every call can pass them on, and that the trampoline in front of functions with
   out / inout parameters gives references copy-in / copy-out behaviour.  Everything else the Metal text says is
   compared token by token with the HLSL text (validated against the typed IR by C01), a difference being accepted only
   where the rules of tools/c02ref.py explain it and the IR confirms it; that comparison is observed, not proved. *)
From Coq Require Import List NArith ZArith Bool Sorted.
From RV Require Import Perm PermProofs MslThreading MslThreadingProofs.
Import ListNotations.

(* globals Metal cannot express as globals are passed to exactly the functions that (transitively) need them *)
Theorem C02_globals_reach_exactly_who_needs_them :
  forall s0 threaded fuel ks s, recurse fuel ks s0 = Some s ->
  forall f g, In f ks -> (In g (required s threaded f) <-> threaded g = true /\ reach s0 f g).
Proof. exact required_exact. Qed.

(* every argument appended to a call is a parameter of the caller *)
Theorem C02_calls_are_well_scoped :
  forall s0 threaded fuel ks s, recurse fuel ks s0 = Some s ->
  forall f d g, In f ks -> In d ks -> In d (get s0 f) -> In g (required s threaded d) -> In g (required s threaded f).
Proof. exact call_is_well_scoped. Qed.

(* the appended arguments and the appended parameters are the same list, in the same (sorted) order *)
Theorem C02_call_matches_signature :
  forall s threaded params args d,
  skipn (List.length args) (call_arguments s threaded args d) = skipn (List.length params) (signature s threaded params d).
Proof. intros s threaded. exact (call_matches_signature threaded s). Qed.

Theorem C02_threaded_in_order : forall s threaded f, StronglySorted (fun a b => N.leb a b = true) (required s threaded f).
Proof. intros s threaded. exact (required_sorted threaded s). Qed.

(* for every body (any sequence of parameter writes, each computed from the current values of all parameters), every
   list of argument variables, aliased or not, and every store, the Metal call through the trampoline leaves every
   variable of the caller as the HLSL call does *)
Theorem C02_trampoline_keeps_copy_semantics :
  forall b locals args s,
    NoDup locals -> List.length locals = List.length args -> wf_body (List.length args) b ->
    (forall x, In x locals -> ~ In x args) ->
    forall y, ~ In y locals -> metal_call b locals args s y = hlsl_call b args s y.
Proof. exact trampoline_keeps_copy_semantics. Qed.

(* non-vacuity: f(a, a) with references alone differs from copy semantics, through the trampoline it does not;
   a call graph main -> f -> g where g uses the static 9 and main uses the static const 8 *)
Example C02_trampoline_is_needed :
  hlsl_call [ISet 1 (fun v => (nth 0 v 0 * 10)%Z); ISet 0 (fun v => (nth 1 v 0 + 1)%Z)] [5%N; 5%N] (fun _ => 1%Z) 5%N = 10%Z /\
  metal_call_direct [ISet 1 (fun v => (nth 0 v 0 * 10)%Z); ISet 0 (fun v => (nth 1 v 0 + 1)%Z)] [5%N; 5%N] (fun _ => 1%Z) 5%N = 11%Z /\
  metal_call [ISet 1 (fun v => (nth 0 v 0 * 10)%Z); ISet 0 (fun v => (nth 1 v 0 + 1)%Z)] [100%N; 101%N] [5%N; 5%N] (fun _ => 1%Z) 5%N = 10%Z.
Proof. vm_compute. repeat split. Qed.

Definition ex_s0 : state := [(1, [2; 8]); (2, [3]); (3, [9]); (8, []); (9, [])]%N.
Definition ex_threaded (k : key) : bool := N.eqb k 9.
Example C02_threading_example :
  match recurse 10 [1; 2; 3; 8; 9]%N ex_s0 with
  | Some s => required s ex_threaded 1%N = [9%N] /\ required s ex_threaded 3%N = [9%N] /\ required s ex_threaded 8%N = []
  | None => False
  end.
Proof. vm_compute. repeat split. Qed.

Print Assumptions C02_globals_reach_exactly_who_needs_them.
Print Assumptions C02_calls_are_well_scoped.
Print Assumptions C02_call_matches_signature.
Print Assumptions C02_threaded_in_order.
Print Assumptions C02_trampoline_keeps_copy_semantics.
