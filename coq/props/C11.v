(* C11 — conditional compilation selects exactly the branches C semantics select: theorems, table obligations, examples. *)
From Coq Require Import List NArith Bool String.
From RV Require Import Cond CondProofs CondParserProofs GenCond CondIncl CondInclProofs XTree CondSubst.
Import ListNotations.

(* table obligations (regenerated from the source on every run) *)
Theorem C11_switch_table : switch_ok switch.
Proof. unfold switch_ok. repeat split; try (intros []); reflexivity. Qed.

Theorem C11_apply_table : forall op l r, gen_apply op l r = apply op l r.
Proof. intros []; reflexivity. Qed.

(* the operator tokens of each precedence level as read from condition_parser.rs; that they are those of
   Cond.op12 / op11 / op7 / op6 is seen by reading, no theorem states it *)
Theorem C11_level_table :
  level_ops =
  [("parse_p12"%string, [("VerticalBarVerticalBar"%string, BOr)], "parse_p11"%string);
   ("parse_p11"%string, [("AmpersandAmpersand"%string, BAnd)], "parse_p7"%string);
   ("parse_p7"%string, [("EqualsEquals"%string, BEq); ("ExclamationPointEquals"%string, BNe)], "parse_p6"%string);
   ("parse_p6"%string, [("LeftAngleBracket:Token+Equals"%string, BLe); ("RightAngleBracket:Token+Equals"%string, BGe);
                        ("LeftAngleBracket"%string, BLt); ("RightAngleBracket"%string, BGt)], "parse_p2"%string)].
Proof. vm_compute. reflexivity. Qed.

(* well-nested directive trees of any depth, conditions that all evaluate (evalc evalb never fails): the automaton
   selects the groups C's rules select *)
Theorem C11_selects_C_groups :
  forall (evalb : env -> list ctok -> bool) (its : items) (e0 : env),
    wf_items its ->
    run_file switch (evalc evalb) e0 (flatten_items its) = inl (sem_items evalb e0 its).
Proof. exact (chain_refines_groups switch C11_switch_table). Qed.

(* any line sequence, evaluator that never fails: the diagnostic, or its absence, is what the nesting count `scan` gives *)
Theorem C11_reject_unbalanced :
  forall (evalb : env -> list ctok -> bool) (ls : list line) (e0 : env),
    result_err (run_file switch (evalc evalb) e0 ls) = scan 0 ls.
Proof. exact (reject_unbalanced switch). Qed.

(* condition trees over || && == != < <= > >= ! ( ) literals and identifiers: parsing the minimally parenthesised
   text succeeds and tells whether the reference value (`ceval`, in N) is nonzero *)
Theorem C11_cond_parser_correct : forall e : cexpr,
  cond_parse (raw e) = Some (negb (N.eqb (ceval e) 0)).
Proof. exact cond_parse_correct. Qed.

Example C11_cond_example :
  raw (EBin BAnd (EBin BOr (ENum 1) (ENum 0)) (ENot (EBin BLt (ENum 2) (EBin BLt (ENum 1) (ENum 3))))) =
  [KLP; KNum 1; KOr; KNum 0; KRP; KAnd; KNot; KLP; KNum 2; KLt; KLP; KNum 1; KLt; KNum 3; KRP; KRP]%N.
Proof. vm_compute. reflexivity. Qed.

Definition ex_tree : items :=
  ICons (ISimple (LDefine "A" (Some 2%N)))
  (ICons (ICond (GIf [KId "A"; KEq; KNum 3])
                (ICons (ISimple (LText 1)) INil)
                (TElif [KId "A"; KEq; KNum 2]
                       (ICons (ISimple (LDefine "B" None))
                        (ICons (ICond (GIfdef "Z") (ICons (ISimple (LText 2)) INil) (TElse (ICons (ISimple (LText 3)) INil))) INil))
                       (TElse (ICons (ISimple (LText 4)) INil))))
  (ICons (ISimple (LUse "A")) INil)).

Example C11_example :
  run_file switch eval_cond [] (flatten_items ex_tree) =
  inl ([("A"%string, Some 2%N); ("B"%string, None)], [OText 3; ONum 2]).
Proof. vm_compute. reflexivity. Qed.

Example C11_example_wf : wf_items ex_tree.
Proof. cbn. tauto. Qed.

(* any switch table, evaluator (failing ones included), include handler and depth: the lines of a group that is not
   selected, of every kind (CondIncl.v), nested conditionals with malformed conditions included, change nothing and
   raise no diagnostic *)
Theorem C11_skipped_group_has_no_effect :
  forall switch evalc files d self body rest (stk : list cstate) (e : env) (o : list otok) (once : list string),
    is_active stk = false -> xgroup 0 body = true ->
    xrun switch evalc files d self (body ++ rest) (mkX (mkP stk e o) once) =
    xrun switch evalc files d self rest (mkX (mkP stk e o) once).
Proof. exact skipped_group_has_no_effect. Qed.

(* #if c / group / #endif without #elif or #else of its own, c false or the whole in a skipped region: as if absent *)
Theorem C11_false_conditional_has_no_effect :
  forall switch evalc files d self c body rest st,
    (is_active (p_stack (x_p st)) = true -> evalc (p_env (x_p st)) c = inl false) ->
    xgroup 0 body = true ->
    xrun switch evalc files d self (XL (LIf c) :: body ++ XL LEndif :: rest) st = xrun switch evalc files d self rest st.
Proof. exact false_conditional_has_no_effect. Qed.

Theorem C11_include_model_is_conservative :
  forall switch evalc files d self ls st,
    xrun switch evalc files d self (map XL ls) st =
    match run switch evalc (x_p st) ls with inl p => inl (mkX p (x_once st)) | inr e => inr (XE e) end.
Proof. exact xrun_conservative. Qed.

(* an #include in a selected group of a present file, not marked once, without #pragma once, whose lines run to their
   end at the remaining depth, is those lines in place: the chain runs across the file boundary *)
Theorem C11_include_is_paste_under_conditionals :
  forall switch evalc files d self f body rest st st1,
    files f = Some body -> marked st f = false -> no_once body = true ->
    is_active (p_stack (x_p st)) = true ->
    xrun switch evalc files d f body st = inl st1 ->
    xrun switch evalc files (S d) self (XInclude f :: rest) st = xrun switch evalc files (S d) self (body ++ rest) st.
Proof. exact include_is_paste_under_conditionals. Qed.

Theorem C11_include_depth_pinned : max_include_depth = 200%nat.
Proof. reflexivity. Qed.

(* non-vacuity: a skipped group of directives rejected outside it; a chain closed by the includer *)
Definition ex_skipped : list xline :=
  [XInclude "missing.h"; XPragmaOther; XUnknown; XPragmaOnce; XL (LDefine "A" (Some 1%N));
   XL (LIf [KOther]); XL (LText 1); XL (LElif [KOther; KOther]); XInclude "missing.h"; XL LElse; XL LEndif].
Example C11_skipped_example_group : xgroup 0 ex_skipped = true.
Proof. reflexivity. Qed.

Definition ex_files (f : string) : option (list xline) :=
  if String.eqb f "main.rssl" then
    Some ([XL (LIf [KNum 0])] ++ ex_skipped ++
          [XL LEndif; XInclude "a.h"; XL (LText 2); XL LEndif; XInclude "a.h"; XL (LUse "A")])
  else if String.eqb f "a.h" then
    Some [XL (LIfdef "G"); XPragmaOnce; XL LElse; XL (LDefine "G" None); XL LEndif; XL (LText 9); XL (LIf [KNum 1])]
  else None.
Example C11_include_example :
  xrun_file switch eval_cond ex_files max_include_depth "main.rssl" [] =
  inr (XE ConditionChainNotFinished).
Proof. vm_compute. reflexivity. Qed.
Definition ex_files2 (f : string) : option (list xline) :=
  if String.eqb f "main.rssl" then
    Some ([XL (LIf [KNum 0])] ++ ex_skipped ++
          [XL LEndif; XInclude "a.h"; XL (LText 2); XL LEndif; XInclude "a.h"; XL LEndif; XInclude "a.h"; XL (LUse "A")])
  else ex_files f.
Example C11_include_example2 :
  xrun_file switch eval_cond ex_files2 max_include_depth "main.rssl" [] =
  inl ([("G"%string, None)], [OText 9; OText 2; OText 9; OId "A"]).
Proof. vm_compute. reflexivity. Qed.

(* where the chain is inactive after the lines before it, a group's worth of lines of any kind can be taken out *)
Theorem C11_skipped_region_is_erasable :
  forall switch evalc files d self a body b st st1,
    xrun switch evalc files d self a st = inl st1 -> is_active (p_stack (x_p st1)) = false -> xgroup 0 body = true ->
    xrun switch evalc files d self (a ++ body ++ b) st = xrun switch evalc files d self (a ++ b) st.
Proof. exact skipped_region_erasable. Qed.

(* well-nested trees over leaves of every kind (XTree.v), evaluator that never fails: the model
   performs the leaves of the groups C's rules select, in order, up to the first rejected one; a selected leaf
   does what the model does on that line alone (`live`).  `ok_items` asks of every leaf, selected or not, that it is no
   conditional directive and, run in a selected group, leaves the chain as it found it (`frame`).  The three theorems
   below give `frame` for a leaf that is no #include, an #include of a missing file, and an #include at depth S d of a
   file that is such a tree at depth d; for other #include leaves it is left to be shown *)
Theorem C11_tree_selects_C_groups :
  forall (evalb : env -> list ctok -> bool) (files : string -> option (list xline)) (d : nat) (self : string)
         (its : xitems) (v : vis),
    ok_items switch evalb files d self its ->
    xrun switch (evalc evalb) files d self (xflat_items its) (st_of [] v) =
    match xsem_items switch evalb files d self v its with inl v' => inl (st_of [] v') | inr e => inr e end.
Proof. exact (tree_selects_C_groups switch C11_switch_table). Qed.

Theorem C11_frame_not_include :
  forall evalb files d self x, leaf_shape x = true -> (forall f, x <> XInclude f) -> frame switch evalb files d self x.
Proof. exact (frame_not_include switch). Qed.

Theorem C11_frame_include_of_a_tree :
  forall evalb files d self f body,
    files f = Some (xflat_items body) -> ok_items switch evalb files d f body ->
    frame switch evalb files (S d) self (XInclude f).
Proof. exact (frame_include switch C11_switch_table). Qed.

Theorem C11_frame_include_missing :
  forall evalb files d self f, files f = None -> frame switch evalb files d self (XInclude f).
Proof. exact (frame_include_missing switch). Qed.

(* main = #ifdef G / #include "missing.h" / #pragma nonsense / #else / #include "a.h" / x1 / #endif / G
   a.h  = #define G / #if 0 / #bogus / #endif / x9 *)
Local Open Scope string_scope.
Definition ex_a : xitems :=
  XCons (XLeaf (XL (LDefine "G" None)))
  (XCons (XCond (GIf [KNum 0]) (XCons (XLeaf XUnknown) XNil) XEnd)
  (XCons (XLeaf (XL (LText 9))) XNil)).
Definition ex_main : xitems :=
  XCons (XCond (GIfdef "G") (XCons (XLeaf (XInclude "missing.h")) (XCons (XLeaf XPragmaOther) XNil))
               (XElse (XCons (XLeaf (XInclude "a.h")) (XCons (XLeaf (XL (LText 1))) XNil))))
  (XCons (XLeaf (XL (LUse "G"))) XNil).
Definition ex_tree_files (f : string) : option (list xline) :=
  if String.eqb f "a.h" then Some (xflat_items ex_a) else None.
Definition ex_evalb (e : env) (c : list ctok) : bool := match eval_cond e c with inl b => b | inr _ => false end.

Example C11_tree_example_ok : ok_items switch ex_evalb ex_tree_files 5 "main.rssl" ex_main.
Proof.
  assert (Ha : ok_items switch ex_evalb ex_tree_files 4 "a.h" ex_a).
  { cbn [ok_items ok_item ok_tail ex_a]. repeat split; try (apply C11_frame_not_include; [reflexivity | discriminate]). }
  cbn [ok_items ok_item ok_tail ex_main]. repeat split;
    try (apply C11_frame_not_include; [reflexivity | discriminate]).
  - apply C11_frame_include_missing. reflexivity.
  - apply (C11_frame_include_of_a_tree ex_evalb ex_tree_files 4 "main.rssl" "a.h" ex_a eq_refl Ha).
Qed.
Example C11_tree_example_value :
  xsem_items switch ex_evalb ex_tree_files 5 "main.rssl" ([], [], []) ex_main =
  inl ([("G", None)], [OText 9; OText 1], []).
Proof. vm_compute. reflexivity. Qed.
Local Close Scope string_scope.

(* an entry file that is such a tree (preprocess_initial_file): macro table and output of the selected leaves, or the
   first rejection among them *)
Theorem C11_tree_file :
  forall (evalb : env -> list ctok -> bool) (files : string -> option (list xline)) (depth : nat) (entry : string)
         (its : xitems) (e0 : env),
    files entry = Some (xflat_items its) -> ok_items switch evalb files depth entry its ->
    xrun_file switch (evalc evalb) files depth entry e0 =
    match xsem_items switch evalb files depth entry (e0, [], []) its with
    | inl (e, o, _) => inl (e, o)
    | inr err => inr err
    end.
Proof. exact (tree_file switch C11_switch_table). Qed.

(* conditions with macros and `defined` in which no identifier used as a value is the word `defined` or a macro with an
   empty replacement (`dwf`): substitution followed by the parser tells whether `ceval` is nonzero of the condition in
   which a macro with a numeric replacement stands for that number, any other identifier for 0, `defined X` /
   `defined(X)` for 1 or 0 *)
Theorem C11_condition_with_macros_correct :
  forall (e : env) (d : dexpr), dwf e d ->
    eval_cond e (rawd d) = inl (negb (N.eqb (ceval (resolve e d)) 0)).
Proof. exact eval_cond_correct. Qed.

Local Open Scope string_scope.
Definition ex_env : env := [("A", Some 2%N); ("B", None)].
(* defined(B) && A == 2 || ! ( defined U < X ) *)
Definition ex_dexpr : dexpr :=
  DBin BOr (DBin BAnd (DDefined "B" true) (DBin BEq (DId "A") (DNum 2)))
           (DNot (DBin BLt (DDefined "U" false) (DId "X"))).
Example C11_condition_example :
  dwf ex_env ex_dexpr /\
  rawd ex_dexpr = [KId "defined"; KLP; KId "B"; KRP; KAnd; KId "A"; KEq; KNum 2; KOr; KNot; KLP; KId "defined"; KId "U"; KLt; KId "X"; KRP]%N /\
  eval_cond ex_env (rawd ex_dexpr) = inl true.
Proof. split; [cbn; repeat split; discriminate | split; vm_compute; reflexivity]. Qed.
Local Close Scope string_scope.
Print Assumptions C11_switch_table.
Print Assumptions C11_apply_table.
Print Assumptions C11_level_table.
Print Assumptions C11_selects_C_groups.
Print Assumptions C11_reject_unbalanced.
Print Assumptions C11_cond_parser_correct.
Print Assumptions C11_skipped_group_has_no_effect.
Print Assumptions C11_false_conditional_has_no_effect.
Print Assumptions C11_include_model_is_conservative.
Print Assumptions C11_include_is_paste_under_conditionals.
Print Assumptions C11_include_depth_pinned.
Print Assumptions C11_tree_selects_C_groups.
Print Assumptions C11_frame_not_include.
Print Assumptions C11_frame_include_of_a_tree.
Print Assumptions C11_frame_include_missing.
Print Assumptions C11_skipped_region_is_erasable.
Print Assumptions C11_condition_with_macros_correct.
Print Assumptions C11_tree_file.
