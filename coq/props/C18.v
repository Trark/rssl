(* C18 — targets agree on everything that is target-independent: the theorems of the property, their
   table obligation and a non-vacuity example. *)
From Coq Require Import List Bool String.
From RV Require Import Macro MacroIrrelevant Bindings BindingsProofs GenBindings GenDefines.
Import ListNotations.
Local Open Scope string_scope.

(* the two macros whose values depend on the target *)
Definition target_macro (x : string) : bool := String.eqb x "RSSL_TARGET_HLSL" || String.eqb x "RSSL_TARGET_MSL".

(* ---- every paste function that cannot produce a target macro name, every pair of macro tables that differ only in
        the definitions of the target macros, every token list that does not mention them: the same expansion ---- *)
Theorem C18_target_macros_irrelevant_for_tokens :
  forall (paste : mtok -> mtok -> option mtok) defs defs' toks,
    (forall a b t, paste a b = Some t -> cleanb target_macro t = true) ->
    rel target_macro defs defs' -> clean target_macro toks ->
    apply_macros paste defs toks = apply_macros paste defs' toks.
Proof. intros paste defs defs' toks Hp R Hc. exact (proj1 (apply_macros_agree target_macro paste Hp defs defs' toks R Hc)). Qed.

(* ---- and for whole files with includes, #define, #undef, #pragma once: the same tokens reach the parser, or the
        same error is reported, for every target ---- *)
Theorem C18_target_macros_irrelevant_for_files :
  forall (paste : mtok -> mtok -> option mtok) files fuel self its st st',
    (forall a b t, paste a b = Some t -> cleanb target_macro t = true) ->
    (forall f body, files f = Some body -> Forall (item_clean target_macro) body) ->
    st_rel target_macro st st' -> Forall (item_clean target_macro) its ->
    match run paste files fuel self its st, run paste files fuel self its st' with
    | Datatypes.inl r, Datatypes.inl r' => ps_out r = ps_out r'
    | Datatypes.inr e, Datatypes.inr e' => e = e'
    | _, _ => False
    end.
Proof.
  intros paste files fuel self its st st' Hp Hf Hs Hc.
  pose proof (run_agree target_macro paste Hp files Hf fuel self its st st' Hs Hc) as H.
  destruct (run paste files fuel self its st), (run paste files fuel self its st'); try exact H.
  destruct H as (_ & _ & H & _). exact H.
Qed.

(* the slot assignment: which declarations are bound does not depend on the target's parameter record, static samplers
   aside (nothing is said of kinds and counts: slot_count does depend on the record); only buffer addresses can become
   inline constants, and only when the record supports them *)
Theorem C18_bound_set_is_target_independent :
  forall p p' (d : Bindings.decl okind), d_static_sampler d = false -> bindable okind p d = bindable okind p' d.
Proof.
  intros p p' d Hs. unfold bindable, Bindings.skipped_sampler. destruct (d_kind d); try reflexivity. rewrite Hs. reflexivity.
Qed.

Theorem C18_inline_only_for_buffer_addresses :
  forall p (d : Bindings.decl okind), Bindings.takes_inline okind is_addr p d = true ->
    support_buffer_address p = true /\ Bindings.decl_is_addr okind is_addr d = true.
Proof.
  intros p d H. unfold Bindings.takes_inline in H. destruct (d_kind d); try discriminate. apply andb_true_iff in H. exact H.
Qed.

Example C18_example :
  let pastef := fun _ _ : mtok => @None mtok in
  let d (v : string) := [{| m_name := "RSSL_TARGET_HLSL"; m_fn := false; m_params := 0; m_body := [MLit v] |};
                         {| m_name := "N"; m_fn := false; m_params := 0; m_body := [MLit "4"] |}] in
  apply_macros pastef (d "1") [MId "x"; MWs; MId "N"] = apply_macros pastef (d "0") [MId "x"; MWs; MId "N"] /\
  apply_macros pastef (d "1") [MId "RSSL_TARGET_HLSL"] <> apply_macros pastef (d "0") [MId "RSSL_TARGET_HLSL"].
Proof. vm_compute. split; [reflexivity | discriminate]. Qed.

(* ---- the premise of the two macro theorems, as an obligation on the source: the section of compile() that builds the
        initial macro table (regenerated from src/compile.rs on every run) consists of unconditional pushes only, and
        every macro other than RSSL_TARGET_HLSL / RSSL_TARGET_MSL is pushed with a literal value; so the tables of two
        targets differ in the definitions of those two names only ---- *)
Theorem C18_initial_defines_differ_only_in_target_macros :
  forallb (fun r : string * string * bool * string =>
             let '(kind, name, nested, value) := r in
             String.eqb kind "push" && negb nested &&
             (String.eqb name "RSSL_TARGET_HLSL" || String.eqb name "RSSL_TARGET_MSL" || negb (String.eqb value "<computed>")))
          initial_defines = true.
Proof. vm_compute. reflexivity. Qed.

Print Assumptions C18_target_macros_irrelevant_for_tokens.
Print Assumptions C18_initial_defines_differ_only_in_target_macros.
Print Assumptions C18_target_macros_irrelevant_for_files.
Print Assumptions C18_bound_set_is_target_independent.
Print Assumptions C18_inline_only_for_buffer_addresses.
