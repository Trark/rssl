(* C07 — compilation is deterministic: the walks over hash containers cannot reach the output.  The theorems, the reviewed inventory and examples. *)
From Coq Require Import List NArith Bool String Permutation.
From RV Require Import Perm PermProofs NameGen NameGenPerm GenHashSites.
Import ListNotations.
Local Open Scope string_scope.

(* ---- inventory obligation: the places where the workspace walks a hash container in its internal order (regenerated
        from the sources on every run, `for` loops cross-checked against the compiler's types through clippy) are
        exactly the reviewed ones, each with the way its order is neutralised ---- *)
Definition reviewed : list (string * string * string * string * string) := [
  ("ast/src/ast_expressions.rs", "fmt", "for:scopes", "ordered @4412fe0ed3",
     "not-hash: a slice of identifiers");
  ("ast/src/ast_expressions.rs", "fmt", "for:scopes", "ordered @9248ae7cb5",
     "not-hash: a slice of identifiers");
  ("formatter/src/formatter.rs", "format_scoped_identifier", "for:scopes", "ordered @b8a41e9f42",
     "not-hash: a slice of identifiers");
  ("ir/src/ir_module.rs", "assign_api_bindings", "for:inline_size", "sorted inline_constant_buffers.sort() @a9214933b2",
     "sorted: C07_pair_sort (inline_constant_buffers.sort())");
  ("ir/src/name_generator.rs", "build", "for:&scopes", "into-set @f08d193547",
     "scopes: C07_name_scopes");
  ("ir/src/name_generator.rs", "build", "arg:scope.1.iter()", "sorted name_to_symbol_vec.sort_by(|l,r|String::cmp(l.0,r.0)) @f08d193547",
     "sorted: C07_scope_names (names of one scope)");
  ("ir/src/name_generator.rs", "build", "scope.1.iter(", "sorted name_to_symbol_vec.sort_by(|l,r|String::cmp(l.0,r.0)) @f08d193547",
     "sorted: C07_scope_names (names of one scope)");
  ("ir/src/name_generator.rs", "build", "for:symbols", "into-set @f08d193547",
     "not-hash: a Vec of symbols");
  ("ir/src/name_generator.rs", "build", "for:&name_map.names", "into-set @f08d193547",
     "set: the loop body only inserts namespace ids into the HashSet used_namespaces (a namespace and its parents when a non-namespace symbol lives in it); the early `break` only skips parents that are already in the set");
  ("ir/src/name_generator.rs", "build", "for:&name_map.names", "into-set @f08d193547",
     "set: the loop body only inserts the name into the HashSet of its namespace (namespace_names), read by membership tests alone");
  ("ir/src/usage_analysis.rs", "recurse", "self.0.keys(", "collected-unsorted @f19a2586da",
     "fixpoint: C07_usage_fixpoint");
  ("ir/src/usage_analysis.rs", "recurse", "for:&current_set.required", "into-set @f19a2586da",
     "set: elements only go into another set");
  ("ir/src/usage_analysis.rs", "recurse", "arg:&self.0.get(other).unwrap().required", "into-set @f19a2586da",
     "set: elements only go into another set");
  ("msl/src/generator.rs", "analyse_globals", "for:global_usage.get_usage_for_function(id)", "sorted required_globals.sort() @79e2298446",
     "sorted: C07_sort (required_globals.sort(), derived total order)");
  ("msl/src/generator.rs", "generate_function_inner", "for:&decl.scope_block.0", "collected-unsorted @20e5a43dc2",
     "not-hash: the statements of a block");
  ("msl/src/generator.rs", "metal_lib_identifier_complex", "arg:names", "into-set @825997b8b4",
     "not-hash: a slice of names");
  ("msl/src/generator/intrinsic_helpers.rs", "generate_helpers", "arg:required_helpers", "sorted objects.sort_by(|(key_lhs,_),(key_rhs,_)|std::cmp::Ord::cmp(key_lhs,key_rhs)) @48fa373fe9",
     "sorted: C07_sort (objects.sort_by / ordered.sort(), derived total orders on distinct elements)");
  ("msl/src/generator/intrinsic_helpers.rs", "generate_helpers", "arg:helpers", "sorted ordered.sort() @48fa373fe9",
     "sorted: C07_sort (objects.sort_by / ordered.sort(), derived total orders on distinct elements)");
  ("msl/src/generator/pipeline.rs", "generate_pipeline", "for:&mutbinding_layout.0", "reduce @f71ee66ce9",
     "not-hash: BindingLayout / ArgumentBuffer wrap a Vec");
  ("msl/src/generator/pipeline.rs", "generate_pipeline", "for:&mutargument_buffer.0", "reduce @f71ee66ce9",
     "not-hash: BindingLayout / ArgumentBuffer wrap a Vec");
  ("msl/src/generator/pipeline.rs", "generate_pipeline", "&mutbinding_layout.0.iter(", "ordered @f71ee66ce9",
     "not-hash: BindingLayout / ArgumentBuffer wrap a Vec");
  ("msl/src/generator/pipeline.rs", "generate_pipeline", "for:&argument_buffer.0", "into-set @f71ee66ce9",
     "not-hash: BindingLayout / ArgumentBuffer wrap a Vec");
  ("msl/src/generator/pipeline.rs", "generate_pipeline", "binding_layout.0.iter_mut(", "ordered @f71ee66ce9",
     "not-hash: BindingLayout / ArgumentBuffer wrap a Vec");
  ("msl/src/generator/pipeline.rs", "generate_pipeline", "for:&argument_buffer.0", "collected-unsorted @f71ee66ce9",
     "not-hash: BindingLayout / ArgumentBuffer wrap a Vec");
  ("parser/src/parser/expressions.rs", "parse_expression_resolve_symbols", "for:symbols", "into-set @f1ae854ece",
     "not-hash: a Vec");
  ("parser/src/parser/expressions.rs", "parse_expression_resolve_symbols", "for:&selected_result.1", "reduce @f1ae854ece",
     "not-hash: a Vec");
  ("typer/src/typer/scopes.rs", "ensure_struct_template", "ast.template_params.0.iter(", "reduce @8532fd6a56",
     "not-hash: a Vec of template parameters");
  ("typer/src/typer/scopes.rs", "walk_into_scopes", "for:names", "ordered @3ea1a0e416",
     "not-hash: a slice / the Vec stored under one name");
  ("typer/src/typer/scopes.rs", "walk_into_scopes", "for:symbols", "ordered @3ea1a0e416",
     "not-hash: a slice / the Vec stored under one name");
  ("typer/src/typer/scopes.rs", "end_enum", "for:enum_symbols", "collected-unsorted @15c4f50eca",
     "commutative: min/max and independent per-value updates");
  ("typer/src/typer/scopes.rs", "end_enum", "for:symbols", "ordered @15c4f50eca",
     "not-hash: the Vec stored under one name");
  ("typer/src/typer/scopes.rs", "find_identifier_in_scope", "for:symbols", "collected-unsorted @a8b86716b1",
     "not-hash: the Vec stored under one name");
  ("typer/src/typer/scopes.rs", "find_identifier_in_scope", "for:symbols", "ordered @a8b86716b1",
     "not-hash: the Vec stored under one name");
  ("typer/src/typer/scopes.rs", "build_function_template_signature", "self.scopes[old_scope_id].symbols.values(", "ordered @68eadfb9e6",
     "commutative: assertions only");
  ("typer/src/typer/scopes.rs", "build_function_template_signature", "for:symbols", "assert-only @68eadfb9e6",
     "not-hash: the Vec stored under one name");
  ("typer/src/typer/scopes.rs", "build_function_template_signature", "for:&self.scopes[old_scope_id].symbols", "collected-unsorted @68eadfb9e6",
     "set: distinct names inserted into a map");
  ("typer/src/typer/scopes.rs", "build_function_template_signature", "for:symbols", "collected-unsorted @68eadfb9e6",
     "not-hash: the Vec stored under one name");
  ("typer/src/typer/scopes.rs", "extract_locals", "self.variables.iter(", "collected-unsorted @049e420d14",
     "unobserved: ScopedDeclarations.variables is only filtered, never read for output")].

Theorem C07_inventory :
  map (fun r : string * string * string * string * string => let '(f, fn, e, c, _) := r in (f, fn, e, c)) reviewed = sites /\
  clippy_uncovered = [] /\
  forallb (fun r : string * string * string * string * string => let '(_, _, _, c, v) := r in
             negb (String.prefix "UNREVIEWED" v) &&
             (* a walk whose elements are collected in order and not sorted must be reviewed as not reaching the output *)
             (if String.prefix "ordered" c || String.prefix "collected-unsorted" c
              then String.prefix "not-hash" v || String.prefix "fixpoint" v || String.prefix "commutative" v
                   || String.prefix "set" v || String.prefix "unobserved" v
              else true)) reviewed = true.
Proof. split; [|split]; reflexivity. Qed.

(* ---- collect the elements of a hash container in any order, then sort by a total order under which elements that
        compare equal are equal (derived Ord on distinct elements): the result does not depend on the order ---- *)
Theorem C07_sort :
  forall (A : Type) (leb : A -> A -> bool),
    (forall x y, leb x y = true \/ leb y x = true) ->
    (forall x y z, leb x y = true -> leb y z = true -> leb x z = true) ->
    forall l l', (forall x y, In x l -> In y l -> leb x y = true -> leb y x = true -> x = y) ->
    Permutation l l' -> isort leb l = isort leb l'.
Proof. exact sort_order_irrelevant. Qed.

Theorem C07_sort_by_key :
  forall (A : Type) (key : A -> N) (l l' : list A),
    NoDup (map key l) -> Permutation l l' -> isort (key_leb A key) l = isort (key_leb A key) l'.
Proof. exact sort_by_key_order_irrelevant. Qed.

Theorem C07_pair_sort : forall l l' : list (N * N), Permutation l l' -> isort pair_leb l = isort pair_leb l'.
Proof. exact pair_sort_order_irrelevant. Qed.

(* ---- the names of one scope (keys of a map, hence distinct) are walked in any order ---- *)
Theorem C07_scope_names :
  forall reserved es es' k g,
    NoDup (map e_name es) -> Permutation es es' -> assign_scope reserved es = Some (k, g) ->
    exists k', assign_scope reserved es' = Some (k', g) /\ Permutation k k'.
Proof. exact assign_scope_order_irrelevant. Qed.

(* ---- the scopes are walked in any order: every local variable gets the same name and the global symbols get the same
        (symbol, name) pairs ---- *)
Theorem C07_name_scopes :
  forall reserved scopes scopes' locals g ls,
    Permutation scopes scopes' -> build reserved scopes locals = Some (g, ls) ->
    exists g', build reserved scopes' locals = Some (g', ls) /\ Permutation g g'.
Proof. exact build_order_irrelevant. Qed.

(* ---- the usage fixpoint visits the keys in any order: when the loop ends (`recurse` is given fuel and says nothing
        of a run that exhausts it), the set of every visited key holds exactly the reachable symbols ---- *)
Theorem C07_usage_fixpoint :
  forall s0 fuel fuel' ks ks' s s' k,
    recurse fuel ks s0 = Some s -> recurse fuel' ks' s0 = Some s' -> In k ks -> In k ks' ->
    seteq (get s k) (get s' k).
Proof.
  intros s0 fuel fuel' ks ks' s s' k H H' Hk Hk'. split; intros x Hx.
  - apply (recurse_is_reachability s0 fuel' ks' s' k H' Hk'). apply (recurse_is_reachability s0 fuel ks s k H Hk). exact Hx.
  - apply (recurse_is_reachability s0 fuel ks s k H Hk). apply (recurse_is_reachability s0 fuel' ks' s' k H' Hk'). exact Hx.
Qed.

Theorem C07_usage_is_reachability :
  forall s0 fuel ks s k, recurse fuel ks s0 = Some s -> In k ks -> forall x, In x (get s k) <-> reach s0 k x.
Proof. exact recurse_is_reachability. Qed.

Example C07_example_fixpoint :
  let s0 := [(1, [2]); (2, [3]); (3, [1; 4]); (4, [])]%N in
  recurse 10 [1; 2; 3; 4]%N s0 = Some [(1, [2; 3; 1; 4]); (2, [3; 1; 4; 2]); (3, [1; 4; 2; 3]); (4, [])]%N /\
  recurse 10 [4; 3; 2; 1]%N s0 = Some [(1, [2; 3; 1; 4]); (2, [3; 1; 4; 2]); (3, [1; 4; 2; 3]); (4, [])]%N.
Proof. vm_compute. split; reflexivity. Qed.

Example C07_example_sort : isort pair_leb [(2, 1); (0, 7); (2, 0)]%N = isort pair_leb [(0, 7); (2, 0); (2, 1)]%N.
Proof. vm_compute. reflexivity. Qed.

Print Assumptions C07_inventory.
Print Assumptions C07_sort.
Print Assumptions C07_sort_by_key.
Print Assumptions C07_pair_sort.
Print Assumptions C07_scope_names.
Print Assumptions C07_name_scopes.
Print Assumptions C07_usage_fixpoint.
Print Assumptions C07_usage_is_reachability.
