(* C04 — emitted DirectX HLSL is accepted by the front end and is a fixpoint.  The property is a composition; each link
   is a theorem about the model of the pass responsible for it:
     names       a path written by the exporter is found again, from where it is read, as the symbol it was written for;
                 the name map of the second compilation is the name map of the first
     slots       the declarations as printed (group explicit, object kinds possibly re-spelt) get the same slots
     expressions, literals   the links proved for C09 and C10 (Check sentences below)
   The end-to-end statement (the second output equals the first byte for byte) is not proved: the correspondence
   observes it on the implementation (corpus, repository sources, generated programs). *)
From Coq Require Import List NArith Bool String Lia.
From RV Require Import Wire NameGen NameGenProofs Bindings BindingsProofs FixpointProofs Scopes ScopesProofs GenBindings GenNames.
From RV Require C09 C10.
Import ListNotations.
Local Open Scope string_scope.
Local Open Scope list_scope.

(* names.  Whatever the namespaces, their contents, the place of use and the local frames around it (parameters,
   locals, members: all their names satisfy `inner`): the emitted path resolves to the symbol *)
Theorem C04_emitted_path_finds_its_symbol :
  forall (is_ns : list string -> bool) (has : list string -> string -> bool) (inner : string -> bool)
         (live : list string -> bool),
    (* every namespace from which namespaces lead to a declaration is written out *)
    (forall n s r t' leaf', walk is_ns (n :: s) r = Some t' -> has t' leaf' = true -> live (n :: s) = true) ->
    forall (frames : list (string -> bool)) (u t : list string) (leaf : string),
    ns_ok is_ns t = true -> has t leaf = true ->
    Forall (fun f : string -> bool => forall n, f n = true -> inner n = true) frames ->
    resolve is_ns has frames u (emit is_ns has inner live u t leaf) = Some (Declared t).
Proof. exact emitted_path_resolves. Qed.

(* without the anchor (the exporters before the repair) a nearer declaration captures the path:
   ::f used from namespace Q that declares its own f; a global v read in a function with a local v *)
Definition ex_is_ns (p : list string) : bool := match p with ["Q"] => true | _ => false end.
Definition ex_has (p : list string) (n : string) : bool :=
  match p with [] => String.eqb n "f" || String.eqb n "v" | ["Q"] => String.eqb n "f" | _ => false end.

Example C04_relative_path_is_captured :
  resolve ex_is_ns ex_has [] ["Q"] (emit_relative [] "f") = Some (Declared ["Q"]) /\
  resolve ex_is_ns ex_has [fun n => String.eqb n "v"] [] (emit_relative [] "v") = Some Local /\
  resolve ex_is_ns ex_has [] ["Q"] (emit ex_is_ns ex_has (fun n => String.eqb n "v") ex_is_ns ["Q"] [] "f") = Some (Declared []) /\
  resolve ex_is_ns ex_has [fun n => String.eqb n "v"] [] (emit ex_is_ns ex_has (fun n => String.eqb n "v") ex_is_ns [] [] "v") = Some (Declared []).
Proof. vm_compute. repeat split. Qed.

(* the name map of the emitted program, for every reserved list: every symbol of a scope (names distinct in the first
   compilation) keeps the name it was given, nothing is generated again; in a build whose scopes hold only kept names,
   locals keep theirs when none is reserved or the name of a global variable (which the first compilation
   guarantees: C15_locals_avoid_reserved_and_generated) *)
Theorem C04_second_generation_names :
  forall reserved es K G,
    NoDup (map e_name es) -> assign_scope reserved es = Some (K, G) ->
    assign_scope reserved (reentries (K ++ G)) = Some (K ++ G, []).
Proof.
  intros reserved es K G Hnd Ha. destruct (assign_scope_spec reserved es K G Hnd Ha) as (_ & Hres & _).
  rewrite (assign_scope_identity _ _ (reentries_kept _ _ Hres)), (kept_assignments_reentries _ _ Hres). reflexivity.
Qed.

Theorem C04_name_map_identity :
  forall reserved scopes locals,
    Forall (Forall (fun e => is_kept reserved e = true)) scopes ->
    (forall id n, In (id, n) locals ->
       in_str n (gvar_names (flat_map (kept_assignments reserved) scopes) ++ reserved) = false) ->
    build reserved scopes locals = Some (flat_map (kept_assignments reserved) scopes, locals).
Proof.
  intros reserved scopes locals Hs Hl. unfold build. rewrite (assign_scopes_identity reserved scopes Hs). cbn [app].
  rewrite (assign_locals_identity locals (map snd locals) _ [] Hl). reflexivity.
Qed.

Example C04_names_example :
  let first := assign_scope hlsl_reserved
                 [mkEntry "f" [(3, 0); (3, 1)]%N; mkEntry "f_0" [(3, 2)%N]; mkEntry "abs" [(2, 0)%N]; mkEntry "g" [(2, 1)%N]] in
  first = Some ([((3, 2)%N, "f_0"); ((2, 1)%N, "g")], [((2, 0)%N, "abs_0"); ((3, 0)%N, "f_1"); ((3, 1)%N, "f_2")]) /\
  assign_scope hlsl_reserved (reentries ([((3, 2)%N, "f_0"); ((2, 1)%N, "g")] ++ [((2, 0)%N, "abs_0"); ((3, 0)%N, "f_1"); ((3, 1)%N, "f_2")]))
  = Some ([((3, 2)%N, "f_0"); ((2, 1)%N, "g")] ++ [((2, 0)%N, "abs_0"); ((3, 0)%N, "f_1"); ((3, 1)%N, "f_2")], []).
Proof. vm_compute. split; reflexivity. Qed.

Notation decl := (Bindings.decl okind).
Notation assign := (Bindings.assign okind metal2 is_addr).

(* the printed declaration carries its group; the default group of the second compilation is irrelevant *)
Theorem C04_slots_rederived_with_explicit_groups :
  forall p dflt dflt' (ds : list decl),
    assign p dflt' (map (with_group okind dflt) ds) = assign p dflt ds.
Proof.
  intros p dflt dflt' ds. rewrite (map_ext _ _ (with_group_emitted okind dflt)).
  apply (assign_emitted okind metal2 is_addr); reflexivity.
Qed.

(* DirectX: object kinds may be printed as other object kinds (BufferAddress as ByteAddressBuffer) *)
Theorem C04_slots_rederived_directx :
  forall (rek : okind -> okind) p dflt dflt' (ds : list decl),
    metal_slot_layout p = false -> support_buffer_address p = false ->
    assign p dflt' (map (emitted okind rek dflt) ds) = assign p dflt ds.
Proof.
  intros rek p dflt dflt' ds Hm Hs. apply (assign_emitted okind metal2 is_addr); intros o; rewrite ?Hm, ?Hs; reflexivity.
Qed.

(* the parameter record for HlslForDirectX (regenerated from src/compile.rs) meets both premises *)
Theorem C04_directx_params :
  match find (fun r : string * params => String.eqb (fst r) "HlslForDirectX") target_params with
  | Some (_, p) => metal_slot_layout p = false /\ support_buffer_address p = false
  | None => False
  end.
Proof. vm_compute. split; reflexivity. Qed.

Check C09.C09_expression_roundtrip.
Check C09.C09_printer_is_level_directed.
Check C10.C10_int_exact.
Check C10.C10_float_nearest_pos.
Check C10.C10_float_nearest_neg.

Print Assumptions C04_emitted_path_finds_its_symbol.
Print Assumptions C04_second_generation_names.
Print Assumptions C04_name_map_identity.
Print Assumptions C04_slots_rederived_with_explicit_groups.
Print Assumptions C04_slots_rederived_directx.
Print Assumptions C04_directx_params.
