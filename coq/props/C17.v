(* C17 — pipelines are selected and compiled independently.  The theorems and an example. *)
From Coq Require Import List Bool String.
From RV Require Import Pipeline PipelineProofs GenPipelineUses.
Import ListNotations.
Local Open Scope string_scope.

(* the lines of src/, ir/, hlsl/, msl/ and typer/ that mention `pipelines` or `selected_pipeline`, as
   tools/extract_tables.py collects them, are these and no others.  That they read the list only at the selected index
   (exporters), walk it in select_pipeline and compile's loop and write it only in the type checker, so that
   build_pipeline's result for one pipeline depends on the front end's module and that pipeline alone, is a reading of
   the lines and is not proved. *)
Theorem C17_pipeline_list_uses :
  pipeline_uses =
  [("hlsl/src/ast_generate.rs", "for stage in &context.module.pipelines[pipeline].stages {");
   ("hlsl/src/ast_generate.rs", "for stage in &module.pipelines[pipeline].stages {");
   ("hlsl/src/ast_generate.rs", "if let Some(pipeline) = context.module.selected_pipeline {");
   ("hlsl/src/ast_generate.rs", "if let Some(pipeline) = module.selected_pipeline {");
   ("ir/src/ir_module.rs", "Some(index) => self.pipelines[index].default_bind_group_index,");
   ("ir/src/ir_module.rs", "for (i, pipeline) in self.pipelines.iter().enumerate() {");
   ("ir/src/ir_module.rs", "let default_set = match self.selected_pipeline {");
   ("ir/src/ir_module.rs", "output.selected_pipeline = selected;");
   ("ir/src/ir_module.rs", "pub pipelines: Vec<PipelineDefinition>,");
   ("ir/src/ir_module.rs", "pub selected_pipeline: Option<usize>,");
   ("msl/src/generator.rs", "Some(&module.pipelines[selected_pipeline])");
   ("msl/src/generator.rs", "generate_pipeline(selected_pipeline, &mut context)?;");
   ("msl/src/generator.rs", "if selected_pipeline.is_some() {");
   ("msl/src/generator.rs", "let selected_pipeline = if let Some(selected_pipeline) = module.selected_pipeline {");
   ("msl/src/lib.rs", "if let Some(selected_pipeline) = module.selected_pipeline {");
   ("msl/src/lib.rs", "let pipeline = &module.pipelines[selected_pipeline];");
   ("msl/src/lib.rs", "selected_pipeline,");
   ("msl/src/rewrite_mesh_output.rs", "&module.pipelines[pipeline_index].stages[stage_index],");
   ("msl/src/rewrite_mesh_output.rs", "let entry_point = module.pipelines[pipeline_index].stages[stage_index].entry_point;");
   ("src/compile.rs", "for pipeline in &ir.pipelines {");
   ("src/compile.rs", "panic!(""Multiple pipelines with the given name: {}"", name);");
   ("typer/src/typer.rs", "mod pipelines;");
   ("typer/src/typer.rs", "pipelines::parse_pipeline(def, context)?;");
   ("typer/src/typer/globals.rs", "static_sampler = Some(super::pipelines::parse_static_sampler(properties, context)?);");
   ("typer/src/typer/pipelines.rs", ".pipelines");
   ("typer/src/typer/pipelines.rs", "context.module.pipelines.push(pipeline);")].
Proof. vm_compute. reflexivity. Qed.

Theorem C17_all_in_source_order :
  forall (P : Type) (pname : P -> string) (R E : Type) (build : option P -> R + E) pipes rs,
    compile P pname R E build pipes None false = Done R E rs ->
    Forall2 (fun p x => build (Some p) = inl x) pipes rs.
Proof. exact all_in_source_order. Qed.

Theorem C17_named_is_that_pipeline :
  forall (P : Type) (pname : P -> string) (R E : Type) (build : option P -> R + E) pipes n rs,
    compile P pname R E build pipes (Some n) false = Done R E rs ->
    exists p x, rs = [x] /\ build (Some p) = inl x /\ List.filter (fun q => String.eqb (pname q) n) pipes = [p].
Proof. exact named_is_that_pipeline. Qed.

Theorem C17_unknown_name_fails :
  forall (P : Type) (pname : P -> string) (R E : Type) (build : option P -> R + E) pipes n,
    (forall p, In p pipes -> pname p <> n) -> compile P pname R E build pipes (Some n) false = NotFound R E n.
Proof. exact unknown_name_fails. Qed.

Theorem C17_no_pipelines_fails_unless_mode :
  forall (P : Type) (pname : P -> string) (R E : Type) (build : option P -> R + E),
    compile P pname R E build [] None false = NoPipelines R E /\
    (forall pipes filter x, build None = inl x -> compile P pname R E build pipes filter true = Done R E [x]).
Proof. intros. split; [apply no_pipelines_fails | apply no_pipeline_mode_builds_the_module]. Qed.

(* compiled alone by name or as part of the whole file: the same result, found at the pipeline's position *)
Theorem C17_by_name_equals_position :
  forall (P : Type) (pname : P -> string) (R E : Type) (build : option P -> R + E) pipes n rs rs_all,
    compile P pname R E build pipes (Some n) false = Done R E rs -> compile P pname R E build pipes None false = Done R E rs_all ->
    exists i p x, rs = [x] /\ nth_error pipes i = Some p /\ pname p = n /\ nth_error rs_all i = Some x.
Proof. exact by_name_equals_position. Qed.

Example C17_example :
  let build := fun p : option string => match p with Some n => (inl (String.append "built-" n) : string + unit) | None => inl "module" end in
  compile string (fun n => n) string unit build ["A"; "B"; "C"] None false = Done _ _ ["built-A"; "built-B"; "built-C"] /\
  compile string (fun n => n) string unit build ["A"; "B"; "C"] (Some "B") false = Done _ _ ["built-B"] /\
  compile string (fun n => n) string unit build ["A"; "B"; "C"] (Some "Z") false = NotFound _ _ "Z" /\
  compile string (fun n => n) string unit build [] None true = Done _ _ ["module"].
Proof. vm_compute. repeat split; reflexivity. Qed.

Print Assumptions C17_pipeline_list_uses.
Print Assumptions C17_all_in_source_order.
Print Assumptions C17_named_is_that_pipeline.
Print Assumptions C17_unknown_name_fails.
Print Assumptions C17_no_pipelines_fails_unless_mode.
Print Assumptions C17_by_name_equals_position.
