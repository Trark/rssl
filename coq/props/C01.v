(* C01 — HLSL export preserves the meaning of every accepted program.  The theorems and their examples.
   The check reads the emitted HLSL back with the front end (the emitted text is inside the input language, C04) and
   compares with `Alpha.pair` the typed IR of the emitted text (IR2) with that of the source (IR1): function bodies
   with literals, operators, conversions, callees and argument lists, global initialisers, struct layouts, enum values.
   A successful comparison means that IR2 is IR1 with the local variables renamed one-to-one, nothing else differs.
   Assumption, not a theorem: the front end's reading of the emitted text is HLSL's reading of it (every conversion
   is explicit in that text). *)
From Coq Require Import List NArith ZArith Bool String.
From RV Require Import Wire Alpha AlphaProofs Sem SemProofs.
Import ListNotations.
Local Open Scope string_scope.

(* the second dump is the first with its locals renamed, one-to-one on the locals of the first *)
Theorem C01_equal_up_to_local_names :
  forall l1 l2 r,
    pair [] 0 l1 l2 = Same r ->
    map (rename r) l1 = l2 /\
    forall a a', In (Id a) l1 -> In (Id a') l1 -> rename r (Id a) = rename r (Id a') -> a = a'.
Proof. exact pair_injective. Qed.

(* no operator, literal, type, callee or arity word differs *)
Corollary C01_words_identical :
  forall l1 l2 r, pair [] 0 l1 l2 = Same r ->
  List.length l1 = List.length l2 /\ forall k s, nth_error l1 k = Some (W s) -> nth_error l2 k = Some (W s).
Proof.
  intros l1 l2 r H. destruct (pair_injective l1 l2 r H) as [M _]. subst l2. split; [rewrite map_length; reflexivity|].
  intros k s E. rewrite nth_error_map, E. reflexivity.
Qed.

(* no false differences *)
Theorem C01_comparison_is_reflexive : forall l, exists r, pair [] 0 l l = Same r.
Proof. intros l. apply pair_reflexive; [apply bij_nil | intros a b H; discriminate]. Qed.

(* what that means for behaviour.  `enc_func` is the encoding harness/src/sdump.rs writes (that a dump is the encoding
   of some f1 is checked on every run: the extracted checker decodes and re-encodes it); `run` is the evaluator of
   model/Sem.v, in which a local is a cell addressed by its VariableId.  The dump of IR2 is then the encoding of a
   function that is discarded in the same cases, returns the same value, copies the same values back through out / inout
   parameters and leaves everything that is not a local in the same state, for every fuel, argument list, outside state
   and interpretation I of the operator, literal, conversion, accessor, callee and global words (compared literally,
   so the same on both sides). *)
Theorem C01_same_behaviour :
  forall (V G : Type) (I : interp V G) (f1 : func) (l2 : list tok) (r : corr),
    pair [] 0 (enc_func f1) l2 = Same r ->
    l2 = enc_func (rn_func r f1) /\
    forall fuel args g, run I fuel f1 args g = run I fuel (rn_func r f1) args g.
Proof. intros V G I. exact (pair_same_behaviour I). Qed.

(* non-vacuity of the evaluator: `int f(int p, inout int q) { int x = p; x += 1; q = x * 2; while (x < 10) { x++; } return x + q; }`
   over the integers: f(5, q) returns 10 + 12 and copies 12 back; so does the same function under other ids, which the
   comparison accepts *)
Definition zi : interp Z unit := {|
  leaf := fun l _ => match l with ["Lit"; "ci"; n] => parse_Z n | _ => None end;
  gget := fun _ _ => None; gput := fun _ _ _ => None;
  truth := fun v => Some (negb (Z.eqb v 0));
  acc_get := fun _ _ => None; acc_put := fun _ _ _ => None; idx_get := fun _ _ => None; idx_put := fun _ _ _ => None;
  call := fun _ _ _ _ => None; ctor := fun _ _ _ => None;
  op := fun name vs =>
    match vs with
    | [a; b] => if String.eqb name "Add" then Some (a + b)%Z else if String.eqb name "Multiply" then Some (a * b)%Z
                else if String.eqb name "LessThan" then Some (if Z.ltb a b then 1 else 0)%Z else None
    | [a] => if String.eqb name "PostfixIncrement" then Some (a + 1)%Z else None
    | _ => None
    end;
  dflt := fun _ => None; agg := fun _ _ => None;
  case_match := fun l v => match l with ["ci"; n] => option_map (Z.eqb v) (parse_Z n) | _ => None end |}.

Definition lit (n : string) : expr := ELeaf ["Lit"; "ci"; n].
Definition ex_f (p q x : N) : func := {|
  f_ret := ["ts"; "i"];
  f_params := [(p, "0", ["ts"; "i"], None); (q, "2", ["ts"; "i"], None)];
  f_body := [ SVar (x, ["Local"; "ts"; "i"], IExp (ELoc p));
              SExpr (EOp "SumAssignment" [ELoc x; lit "1"]);
              SExpr (EOp "Assignment" [ELoc q; EOp "Multiply" [ELoc x; lit "2"]]);
              SWhile (EOp "LessThan" [ELoc x; lit "10"]) [SExpr (EOp "PostfixIncrement" [ELoc x])];
              SRet (EOp "Add" [ELoc x; ELoc q]) ] |}.

Example C01_evaluator_example :
  run zi 20 (ex_f 7 8 9) [Some 5%Z; Some 0%Z] tt = Some (false, Some 22%Z, [None; Some 12%Z], tt) /\
  pair [] 0 (enc_func (ex_f 7 8 9)) (enc_func (ex_f 1 2 3)) = Same [(9, 3); (8, 2); (7, 1)]%N /\
  rn_func [(9, 3); (8, 2); (7, 1)]%N (ex_f 7 8 9) = ex_f 1 2 3 /\
  run zi 20 (ex_f 1 2 3) [Some 5%Z; Some 0%Z] tt = Some (false, Some 22%Z, [None; Some 12%Z], tt).
Proof. vm_compute. repeat split. Qed.

(* switch with fall-through: `int h(int p) { int r = 0; switch (p) { case 1: r = 10; case 2: r += 1; break; default: r = 7; } return r; }` *)
Definition ex_h (p r : N) : func := {|
  f_ret := ["ts"; "i"];
  f_params := [(p, "0", ["ts"; "i"], None)];
  f_body := [ SVar (r, ["Local"; "ts"; "i"], IExp (lit "0"));
              SSwitch (ELoc p) [ SWord ["SCase"; "ci"; "1"]; SExpr (EOp "Assignment" [ELoc r; lit "10"]);
                                 SWord ["SCase"; "ci"; "2"]; SExpr (EOp "SumAssignment" [ELoc r; lit "1"]); SWord ["SBreak"];
                                 SWord ["SDefault"]; SExpr (EOp "Assignment" [ELoc r; lit "7"]) ];
              SRet (ELoc r) ] |}.

Example C01_switch_example :
  map (fun a => run zi 20 (ex_h 4 5) [Some a] tt) [1; 2; 5]%Z =
  [Some (false, Some 11%Z, [None], tt); Some (false, Some 1%Z, [None], tt); Some (false, Some 7%Z, [None], tt)].
Proof. vm_compute. reflexivity. Qed.

(* non-vacuity: `int x = p; return x + 1;` against the same with other ids; against `x - 1`; against a swapped use *)
Definition ex_a := [W "F"; Id 7; W "SVar"; Id 9; W "IE"; W "Loc"; Id 7; W "SRet"; W "Op"; W "Add"; W "Loc"; Id 9; W "Lit"; W "ci"; W "1"].
Definition ex_b := [W "F"; Id 2; W "SVar"; Id 3; W "IE"; W "Loc"; Id 2; W "SRet"; W "Op"; W "Add"; W "Loc"; Id 3; W "Lit"; W "ci"; W "1"].
Definition ex_c := [W "F"; Id 2; W "SVar"; Id 3; W "IE"; W "Loc"; Id 2; W "SRet"; W "Op"; W "Subtract"; W "Loc"; Id 3; W "Lit"; W "ci"; W "1"].
Definition ex_d := [W "F"; Id 2; W "SVar"; Id 3; W "IE"; W "Loc"; Id 2; W "SRet"; W "Op"; W "Add"; W "Loc"; Id 2; W "Lit"; W "ci"; W "1"].

Example C01_example :
  pair [] 0 ex_a ex_b = Same [(9, 3); (7, 2)]%N /\
  pair [] 0 ex_a ex_c = Differ 9 (Some (W "Add")) (Some (W "Subtract")) /\
  pair [] 0 ex_a ex_d = Differ 11 (Some (Id 9)) (Some (Id 2)).
Proof. vm_compute. repeat split. Qed.

Print Assumptions C01_equal_up_to_local_names.
Print Assumptions C01_words_identical.
Print Assumptions C01_comparison_is_reflexive.
Print Assumptions C01_same_behaviour.
