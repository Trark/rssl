(* C12 — macro expansion and inclusion: the theorems of the property and their non-vacuity examples. *)
From Coq Require Import List Bool String Arith.
From RV Require Import Macro MacroProofs MacroSubst MacroLines MacroRescan MacroMany2.
Import ListNotations.
Local Open Scope string_scope.

(* ---- every paste function, every macro table (recursive and mutually recursive definitions included), every token
        list: expansion ends with the expanded list or a diagnostic; it neither runs out of the stated fuel
        (S #macros nested rescans, S #tokens steps per list) nor reaches the scan's skipped increment, and an
        expanded list contains no unprocessed `##` of a replacement list ---- *)
Theorem C12_expansion_terminates :
  forall (paste : mtok -> mtok -> option mtok) (defs : list macro) (toks : list mtok),
    match apply_macros paste defs toks with
    | XOk out => Forall (fun t => t <> MConcat) out
    | XErr _ => True
    | XFuel => False
    | XHang => False
    end.
Proof. exact apply_macros_good. Qed.

(* ---- #include "f" of a file without #pragma once is the file's items run in place ---- *)
Theorem C12_include_is_paste :
  forall paste files fuel self f body rest st st1 st2,
    files f = Some body -> existsb (String.eqb f) (ps_once st) = false -> no_once body = true ->
    run paste files fuel f body st = inl st1 -> run paste files fuel self rest st1 = inl st2 ->
    run paste files (S fuel) self (IInclude f :: rest) st = inl st2 /\
    run paste files (fuel + fuel) self (body ++ rest) st = inl st2.
Proof. exact include_is_paste. Qed.

(* ---- a #pragma once file contributes once: running it marks it, and a marked file contributes nothing ---- *)
Theorem C12_pragma_once_marks :
  forall paste files fuel f pre post st st',
    run paste files fuel f (pre ++ IPragmaOnce :: post) st = inl st' -> no_once pre = true ->
    (forall g, In (IInclude g) pre -> False) ->
    existsb (String.eqb f) (ps_once st') = true.
Proof. intros paste files fuel f pre post st st' H _ _. exact (pragma_once_marks paste files pre fuel f post st st' H). Qed.

Theorem C12_pragma_once_second_time :
  forall paste files fuel self f body rest st,
    files f = Some body -> existsb (String.eqb f) (ps_once st) = true ->
    run paste files (S (S fuel)) self (IInclude f :: rest) st = run paste files (S fuel) self rest st.
Proof. intros paste files fuel self f body rest st Hf Ho. rewrite run_include, Hf, Ho. reflexivity. Qed.

(* ---- defines passed to the compiler are #define lines before the first line of the entry file ---- *)
Theorem C12_defines_are_define_lines :
  forall paste files fuel defines entry its r,
    no_once defines = true ->
    run_with_defines paste files fuel defines entry its = inl r ->
    run paste files (fuel + fuel) entry (defines ++ its) {| ps_macros := []; ps_once := []; ps_out := [] |} = inl r.
Proof.
  intros paste files fuel defines entry its r Hn H. unfold run_with_defines in H.
  destruct (run paste files fuel "<initial defines>" defines _) as [st|e] eqn:H1; [|discriminate].
  exact (run_app_other paste files fuel entry _ defines its _ st r Hn H1 H).
Qed.

Theorem C12_plain_text_unchanged :
  forall (paste : mtok -> mtok -> option mtok) (defs : list macro) (toks : list mtok),
    plain defs toks -> apply_macros paste defs toks = XOk toks.
Proof. exact plain_text_unchanged. Qed.

(* ---- invoking an object-like macro yields its replacement list: every paste function, every macro table, every
        token list `pre ++ name :: post` whose other tokens name no macro and hold no `##` ---- *)
Theorem C12_object_macro_is_replaced :
  forall (paste : mtok -> mtok -> option mtok) (defs : list macro) (mi : nat) (m : macro) (pre post : list mtok),
    nth_error defs mi = Some m -> m_fn m = false ->
    (forall j m', j < mi -> nth_error defs j = Some m' -> String.eqb (m_name m) (m_name m') = false) ->
    plain defs pre -> plain defs post -> plain defs (m_body m) ->
    apply_macros paste defs (pre ++ MId (m_name m) :: post) = XOk (pre ++ m_body m ++ post).
Proof. exact object_macro_is_replaced. Qed.

(* ---- invoking a function-like macro yields its replacement list with the (trimmed) arguments substituted for the
        parameters; the arguments are plain text, may hold parentheses, and commas inside them do not split it ---- *)
Theorem C12_function_macro_is_substituted :
  forall (paste : mtok -> mtok -> option mtok) (defs : list macro) (mi : nat) (m : macro)
         (pre : list mtok) (args : list (list mtok)) (post : list mtok),
    nth_error defs mi = Some m -> m_fn m = true ->
    (forall j m', j < mi -> nth_error defs j = Some m' -> String.eqb (m_name m) (m_name m') = false) ->
    args <> [] -> List.length args = m_params m -> Forall (simple defs) args ->
    plain defs pre -> plain defs post -> forallb (bodyb defs) (m_body m) = true ->
    apply_macros paste defs (pre ++ MId (m_name m) :: MLP :: commas args ++ MRP :: post) =
    XOk (pre ++ subst (m_body m) (map trim args) ++ post).
Proof. exact function_macro_is_substituted. Qed.

Definition ex_paste (a b : mtok) : option mtok :=
  match a, b with MId x, MId y => Some (MId (x ++ y)) | _, _ => None end.
Definition def (cmd : list mtok) : macro :=
  match parse_define cmd with Some m => m | None => {| m_name := ""; m_fn := false; m_params := 0; m_body := [] |} end.
(* #define f(p) p      #define a f(a) + g      #define g(p,q) p ## q     #define h g *)
Definition ex_defs : list macro :=
  [def [MWs; MId "f"; MLP; MId "p"; MRP; MWs; MId "p"];
   def [MWs; MId "a"; MWs; MId "f"; MLP; MId "a"; MRP; MWs; MSym "+"; MWs; MId "g"];
   def [MWs; MId "g"; MLP; MId "p"; MComma; MId "q"; MRP; MWs; MId "p"; MWs; MSym "##"; MWs; MId "q"];
   def [MWs; MId "h"; MWs; MId "g"]].

Example C12_example_recursive :   (* a  ->  a + g   (the inner a is not expanded again) *)
  apply_macros ex_paste ex_defs [MId "a"] = XOk [MId "a"; MWs; MSym "+"; MWs; MId "g"].
Proof. vm_compute. reflexivity. Qed.

Example C12_example_trailing_function :   (* h(x, y) f((u,v))  ->  xy (u,v): g's arguments come from the text after h's expansion *)
  apply_macros ex_paste ex_defs [MId "h"; MLP; MId "x"; MComma; MWs; MId "y"; MRP; MWs; MId "f"; MLP; MLP; MId "u"; MComma; MId "v"; MRP; MRP] =
  XOk [MId "xy"; MWs; MLP; MId "u"; MComma; MId "v"; MRP].
Proof. vm_compute. reflexivity. Qed.

Example C12_example_driver :
  run ex_paste (fun f => if String.eqb f "a.h" then Some [IPragmaOnce; IDefine [MWs; MId "A"; MWs; MLit "1"]; IText [MId "y"; MEndl]] else None)
      20 "main" [IInclude "a.h"; IText [MId "A"; MEndl]; IInclude "a.h"; IText [MId "A"; MEndl]]
      {| ps_macros := []; ps_once := []; ps_out := [] |} =
  inl {| ps_macros := [def [MWs; MId "A"; MWs; MLit "1"]]; ps_once := ["a.h"];
         ps_out := [MId "y"; MEndl; MLit "1"; MEndl; MLit "1"; MEndl] |}.
Proof. vm_compute. reflexivity. Qed.

(* #define two(p,q) q - p      #define K ( 4 ) *)
Definition ex_defs2 : list macro :=
  [def [MWs; MId "two"; MLP; MId "p"; MComma; MId "q"; MRP; MWs; MId "q"; MWs; MSym "-"; MWs; MId "p"];
   def [MWs; MId "K"; MWs; MLP; MLit "4"; MRP]].
Definition ex_args : list (list mtok) := [[MWs; MId "h"; MLP; MId "u"; MComma; MId "v"; MRP]; [MId "w"; MWs]].
Example C12_substitution_example_hyps :
  nth_error ex_defs2 0 = Some (def [MWs; MId "two"; MLP; MId "p"; MComma; MId "q"; MRP; MWs; MId "q"; MWs; MSym "-"; MWs; MId "p"]) /\
  Forall (simple ex_defs2) ex_args /\ forallb (bodyb ex_defs2) (m_body (nth 0 ex_defs2 (def []))) = true /\
  List.length ex_args = m_params (nth 0 ex_defs2 (def [])).
Proof. split; [reflexivity|]. split; [repeat constructor|]. split; reflexivity. Qed.
Example C12_substitution_example :
  apply_macros (fun _ _ => None) ex_defs2 ([MId "x"; MWs] ++ MId "two" :: MLP :: commas ex_args ++ MRP :: [MSym ";"]) =
  XOk [MId "x"; MWs; MId "w"; MWs; MSym "-"; MWs; MId "h"; MLP; MId "u"; MComma; MId "v"; MRP; MSym ";"].
Proof. vm_compute. reflexivity. Qed.
Example C12_object_example :
  apply_macros (fun _ _ => None) ex_defs2 [MId "x"; MSym "+"; MId "K"; MSym ";"] =
  XOk [MId "x"; MSym "+"; MLP; MLit "4"; MRP; MSym ";"].
Proof. vm_compute. reflexivity. Qed.
Local Open Scope list_scope.
(* ---- #define and redefinition take effect from their line onward: whatever the name meant before, the next text
        line sees the new replacement list; after #undef the name is an ordinary identifier ---- *)
Theorem C12_define_takes_effect :
  forall paste files fuel self cmd m pre post st,
    parse_define cmd = Some m -> m_fn m = false ->
    let defs' := remove_macro (m_name m) (ps_macros st) ++ [m] in
    plain defs' pre -> plain defs' post -> plain defs' (m_body m) ->
    run paste files (S (S (S fuel))) self [IDefine cmd; IText (pre ++ MId (m_name m) :: post)] st =
    inl {| ps_macros := defs'; ps_once := ps_once st; ps_out := ps_out st ++ pre ++ m_body m ++ post |}.
Proof.
  intros paste files fuel self cmd m pre post st Hp Hf defs' Hpre Hpost Hbody. destruct (define_first (ps_macros st) m) as [Hn Hfirst].
  exact (run_define_text paste files fuel self cmd m _ _ st Hp (object_macro_is_replaced paste defs' _ m pre post Hn Hf Hfirst Hpre Hpost Hbody)).
Qed.

Theorem C12_define_function_takes_effect :
  forall paste files fuel self cmd m pre args post st,
    parse_define cmd = Some m -> m_fn m = true ->
    let defs' := remove_macro (m_name m) (ps_macros st) ++ [m] in
    args <> [] -> List.length args = m_params m -> Forall (simple defs') args ->
    plain defs' pre -> plain defs' post -> forallb (bodyb defs') (m_body m) = true ->
    run paste files (S (S (S fuel))) self
        [IDefine cmd; IText (pre ++ MId (m_name m) :: MLP :: commas args ++ MRP :: post)] st =
    inl {| ps_macros := defs'; ps_once := ps_once st;
           ps_out := ps_out st ++ pre ++ subst (m_body m) (map trim args) ++ post |}.
Proof.
  intros paste files fuel self cmd m pre args post st Hp Hf defs' Hne Hlen Hs Hpre Hpost Hbody. destruct (define_first (ps_macros st) m) as [Hn Hfirst].
  exact (run_define_text paste files fuel self cmd m _ _ st Hp
           (function_macro_is_substituted paste defs' _ m pre args post Hn Hf Hfirst Hne Hlen Hs Hpre Hpost Hbody)).
Qed.

Theorem C12_undef_takes_effect :
  forall paste files fuel self x pre post st,
    let defs' := remove_macro x (ps_macros st) in
    plain defs' pre -> plain defs' post ->
    run paste files (S (S (S fuel))) self [IUndef x; IText (pre ++ MId x :: post)] st =
    inl {| ps_macros := defs'; ps_once := ps_once st; ps_out := ps_out st ++ pre ++ MId x :: post |}.
Proof.
  intros paste files fuel self x pre post st defs' Hpre Hpost. cbn [run ps_macros ps_once ps_out]. fold defs'.
  rewrite (plain_text_unchanged paste defs' _ (plain_removed x _ pre post Hpre Hpost)). reflexivity.
Qed.

Example C12_lines_example :
  run ex_paste (fun _ => None) 10 "main"
      [IDefine [MWs; MId "X"; MWs; MLit "1"]; IText [MId "X"; MEndl];
       IDefine [MWs; MId "X"; MWs; MLit "2"]; IText [MId "X"; MEndl];
       IUndef "X"; IText [MId "X"; MEndl]]
      {| ps_macros := []; ps_once := []; ps_out := [] |} =
  inl {| ps_macros := []; ps_once := []; ps_out := [MLit "1"; MEndl; MLit "2"; MEndl; MId "X"; MEndl] |}.
Proof. vm_compute. reflexivity. Qed.

(* ---- `##` pastes its neighbours into one token: every paste function, every macro table holding
        `#define name(p,q) p ## q`, every pair of single-token arguments that name no macro, in plain surroundings ---- *)
Theorem C12_paste_macro_pastes :
  forall (paste : mtok -> mtok -> option mtok) (defs : list macro) (mi : nat) (m : macro)
         (pre : list mtok) (a b t : mtok) (post : list mtok),
    nth_error defs mi = Some m -> m_fn m = true -> m_params m = 2 ->
    m_body m = [MArg 0; MWs; MConcat; MWs; MArg 1] ->
    (forall j m', j < mi -> nth_error defs j = Some m' -> String.eqb (m_name m) (m_name m') = false) ->
    simple defs [a] -> simple defs [b] -> is_ws a = false -> is_ws b = false ->
    paste a b = Some t -> plain defs [t] ->
    plain defs pre -> plain defs post ->
    apply_macros paste defs (pre ++ MId (m_name m) :: MLP :: a :: MComma :: b :: MRP :: post) = XOk (pre ++ t :: post).
Proof. exact paste_macro_pastes. Qed.

Example C12_paste_example_hyps :
  nth_error ex_defs 2 = Some (nth 2 ex_defs (def [])) /\ m_body (nth 2 ex_defs (def [])) = [MArg 0; MWs; MConcat; MWs; MArg 1] /\
  simple ex_defs [MId "x"] /\ plain ex_defs [MId "xy"].
Proof. repeat split; reflexivity. Qed.
Example C12_paste_example :
  apply_macros ex_paste ex_defs ([MId "u"; MWs] ++ MId "g" :: MLP :: MId "x" :: MComma :: MId "y" :: MRP :: [MSym ";"]) =
  XOk [MId "u"; MWs; MId "xy"; MSym ";"].
Proof. vm_compute. reflexivity. Qed.
(* ---- a replacement list that names another object-like macro (one level of nesting): the rescan expands it ---- *)
Theorem C12_object_chain_is_replaced :
  forall (paste : mtok -> mtok -> option mtok) (defs : list macro) (ia : nat) (a : macro) (ib : nat) (b : macro)
         (pre post preA postA : list mtok),
    nth_error defs ia = Some a -> m_fn a = false ->
    nth_error defs ib = Some b -> m_fn b = false ->
    m_body a = preA ++ MId (m_name b) :: postA ->
    String.eqb (m_name a) (m_name b) = false ->
    (forall j m', j < ia -> nth_error defs j = Some m' -> String.eqb (m_name a) (m_name m') = false) ->
    (forall j m', j < ib -> nth_error defs j = Some m' -> String.eqb (m_name b) (m_name m') = false) ->
    plain defs pre -> plain defs post -> plain defs preA -> plain defs postA -> plain defs (m_body b) ->
    apply_macros paste defs (pre ++ MId (m_name a) :: post) = XOk (pre ++ (preA ++ m_body b ++ postA) ++ post).
Proof. exact object_chain_is_replaced. Qed.

(* #define L 1 + K ;      #define K ( 4 ) *)
Definition ex_defs3 : list macro :=
  [def [MWs; MId "L"; MWs; MLit "1"; MWs; MSym "+"; MWs; MId "K"; MWs; MSym ";"];
   def [MWs; MId "K"; MWs; MLP; MWs; MLit "4"; MWs; MRP]].
Example C12_chain_example :
  apply_macros (fun _ _ => None) ex_defs3 [MId "x"; MSym "="; MId "L"; MEndl] =
  XOk [MId "x"; MSym "="; MLit "1"; MWs; MSym "+"; MWs; MLP; MWs; MLit "4"; MWs; MRP; MWs; MSym ";"; MEndl].
Proof. vm_compute. reflexivity. Qed.
(* ---- a self-referential object-like macro: the name inside its own replacement list stays as it is - it is neither
        expanded by the rescan (the macro is disabled there) nor when the scan resumes behind the replacement ---- *)
Theorem C12_self_reference_stays :
  forall (paste : mtok -> mtok -> option mtok) (defs : list macro) (mi : nat) (m : macro)
         (pre post preA postA : list mtok),
    nth_error defs mi = Some m -> m_fn m = false ->
    (forall j m', j <> mi -> nth_error defs j = Some m' -> String.eqb (m_name m) (m_name m') = false) ->
    m_body m = preA ++ MId (m_name m) :: postA ->
    plain defs pre -> plain defs post -> plain defs preA -> plain defs postA ->
    apply_macros paste defs (pre ++ MId (m_name m) :: post) = XOk (pre ++ m_body m ++ post).
Proof. exact self_reference_stays. Qed.

(* #define a ( a + 1 ) *)
Definition ex_defs4 : list macro := [def [MWs; MId "a"; MWs; MLP; MId "a"; MWs; MSym "+"; MWs; MLit "1"; MRP]].
Example C12_self_example :
  apply_macros (fun _ _ => None) ex_defs4 [MId "x"; MSym "="; MId "a"; MSym ";"; MId "y"] =
  XOk [MId "x"; MSym "="; MLP; MId "a"; MWs; MSym "+"; MWs; MLit "1"; MRP; MSym ";"; MId "y"].
Proof. vm_compute. reflexivity. Qed.
(* ---- nested invocation: an argument that is the name of an object-like macro is expanded before it is substituted ---- *)
Theorem C12_argument_is_expanded_first :
  forall (paste : mtok -> mtok -> option mtok) (defs : list macro) (fi : nat) (f : macro) (ki : nat) (k : macro)
         (pre post : list mtok),
    nth_error defs fi = Some f -> m_fn f = true -> m_params f = 1 ->
    nth_error defs ki = Some k -> m_fn k = false ->
    (forall j m', j < fi -> nth_error defs j = Some m' -> String.eqb (m_name f) (m_name m') = false) ->
    (forall j m', j < ki -> nth_error defs j = Some m' -> String.eqb (m_name k) (m_name m') = false) ->
    forallb (bodyb defs) (m_body f) = true -> plain defs (m_body k) ->
    plain defs pre -> plain defs post ->
    apply_macros paste defs (pre ++ MId (m_name f) :: MLP :: MId (m_name k) :: MRP :: post) =
    XOk (pre ++ subst (m_body f) [m_body k] ++ post).
Proof. exact argument_is_expanded_first. Qed.

(* #define sq(v) ((v)*(v))      #define K 4 + 1 *)
Definition ex_defs5 : list macro :=
  [def [MWs; MId "sq"; MLP; MId "v"; MRP; MWs; MLP; MLP; MId "v"; MRP; MSym "*"; MLP; MId "v"; MRP; MRP];
   def [MWs; MId "K"; MWs; MLit "4"; MWs; MSym "+"; MWs; MLit "1"]].
Example C12_nested_example :
  apply_macros (fun _ _ => None) ex_defs5 [MId "x"; MSym "="; MId "sq"; MLP; MId "K"; MRP; MSym ";"] =
  XOk [MId "x"; MSym "="; MLP; MLP; MLit "4"; MWs; MSym "+"; MWs; MLit "1"; MRP; MSym "*"; MLP; MLit "4"; MWs; MSym "+"; MWs; MLit "1"; MRP; MRP; MSym ";"].
Proof. vm_compute. reflexivity. Qed.
(* ---- mutually referential object-like macros: B is replaced on the rescan of A's list, the A inside B's list stays ---- *)
Theorem C12_mutual_reference :
  forall (paste : mtok -> mtok -> option mtok) (defs : list macro) (ia : nat) (a : macro) (ib : nat) (b : macro)
         (pre post preA postA preB postB : list mtok),
    nth_error defs ia = Some a -> m_fn a = false ->
    nth_error defs ib = Some b -> m_fn b = false ->
    m_body a = preA ++ MId (m_name b) :: postA ->
    m_body b = preB ++ MId (m_name a) :: postB ->
    String.eqb (m_name a) (m_name b) = false ->
    (forall j m', j <> ia -> nth_error defs j = Some m' -> String.eqb (m_name a) (m_name m') = false) ->
    (forall j m', j < ib -> nth_error defs j = Some m' -> String.eqb (m_name b) (m_name m') = false) ->
    plain defs pre -> plain defs post -> plain defs preA -> plain defs postA -> plain defs preB -> plain defs postB ->
    apply_macros paste defs (pre ++ MId (m_name a) :: post) =
    XOk (pre ++ (preA ++ (preB ++ MId (m_name a) :: postB) ++ postA) ++ post).
Proof. exact mutual_reference. Qed.

(* #define A 1 B 2      #define B 3 A 4 *)
Definition ex_defs6 : list macro :=
  [def [MWs; MId "A"; MWs; MLit "1"; MWs; MId "B"; MWs; MLit "2"];
   def [MWs; MId "B"; MWs; MLit "3"; MWs; MId "A"; MWs; MLit "4"]].
Example C12_mutual_example :
  apply_macros (fun _ _ => None) ex_defs6 [MId "x"; MId "A"; MId "y"] =
  XOk [MId "x"; MLit "1"; MWs; MLit "3"; MWs; MId "A"; MWs; MLit "4"; MWs; MLit "2"; MId "y"].
Proof. vm_compute. reflexivity. Qed.
(* ---- a replacement list that invokes a function-like macro: the rescan performs the invocation ---- *)
Theorem C12_replacement_invokes_function :
  forall (paste : mtok -> mtok -> option mtok) (defs : list macro) (il : nat) (l : macro) (fi : nat) (f : macro)
         (pre post preL : list mtok) (args : list (list mtok)) (postL : list mtok),
    nth_error defs il = Some l -> m_fn l = false ->
    nth_error defs fi = Some f -> m_fn f = true ->
    m_body l = preL ++ MId (m_name f) :: MLP :: commas args ++ MRP :: postL ->
    String.eqb (m_name l) (m_name f) = false ->
    (forall j m', j < il -> nth_error defs j = Some m' -> String.eqb (m_name l) (m_name m') = false) ->
    (forall j m', j < fi -> nth_error defs j = Some m' -> String.eqb (m_name f) (m_name m') = false) ->
    args <> [] -> List.length args = m_params f -> Forall (simple defs) args ->
    forallb (bodyb defs) (m_body f) = true ->
    plain defs pre -> plain defs post -> plain defs preL -> plain defs postL ->
    apply_macros paste defs (pre ++ MId (m_name l) :: post) =
    XOk (pre ++ (preL ++ subst (m_body f) (map trim args) ++ postL) ++ post).
Proof. exact replacement_invokes_function. Qed.

(* #define sq(v) ((v)*(v))      #define L 1 + sq(3) *)
Definition ex_defs7 : list macro :=
  [def [MWs; MId "sq"; MLP; MId "v"; MRP; MWs; MLP; MLP; MId "v"; MRP; MSym "*"; MLP; MId "v"; MRP; MRP];
   def [MWs; MId "L"; MWs; MLit "1"; MWs; MSym "+"; MWs; MId "sq"; MLP; MLit "3"; MRP]].
Example C12_replacement_function_example :
  apply_macros (fun _ _ => None) ex_defs7 [MId "x"; MSym "="; MId "L"; MSym ";"] =
  XOk [MId "x"; MSym "="; MLit "1"; MWs; MSym "+"; MWs; MLP; MLP; MLit "3"; MRP; MSym "*"; MLP; MLit "3"; MRP; MRP; MSym ";"].
Proof. vm_compute. reflexivity. Qed.
(* ---- any number of macro uses in one token list, object-like and function-like mixed (replacement lists and
        arguments that name no macro; arguments may hold parentheses): each use is replaced by its replacement list with
        the arguments substituted, in order, and the text between the uses stays as it is ---- *)
Theorem C12_every_use_is_replaced :
  forall (paste : mtok -> mtok -> option mtok) (defs : list macro) (us : list muse) (post : list mtok),
    Forall (muse_ok defs (map (fun _ => false) defs)) us -> plain defs post ->
    apply_macros paste defs (min us ++ post) = XOk (mout us ++ post).
Proof. exact every_use_is_replaced. Qed.

(* #define W 640      #define sq(v) ((v)*(v))     W * sq(3) + W ; *)
Definition ex_defs9 : list macro :=
  [def [MWs; MId "W"; MWs; MLit "640"];
   def [MWs; MId "sq"; MLP; MId "v"; MRP; MWs; MLP; MLP; MId "v"; MRP; MSym "*"; MLP; MId "v"; MRP; MRP]].
Definition ex_muses : list muse :=
  [UObj [] 0 (nth 0 ex_defs9 (def [])); UFn [MSym "*"] 1 (nth 1 ex_defs9 (def [])) [[MLit "3"]]; UObj [MSym "+"] 0 (nth 0 ex_defs9 (def []))]%nat.
Example C12_every_use_example_ok : Forall (muse_ok ex_defs9 (map (fun _ => false) ex_defs9)) ex_muses.
Proof.
  assert (F0 : forall j m', j < 0 -> nth_error ex_defs9 j = Some m' -> String.eqb "W" (m_name m') = false)
    by (intros j m' Hj; inversion Hj).
  assert (F1 : forall j m', j < 1 -> nth_error ex_defs9 j = Some m' -> String.eqb "sq" (m_name m') = false).
  { intros j m' Hj Hn. destruct j as [|j]; [cbn in Hn; inversion Hn; reflexivity | inversion Hj as [|? Hj']; inversion Hj']. }
  unfold ex_muses, muse_ok. apply Forall_cons; [|apply Forall_cons; [|apply Forall_cons; [|apply Forall_nil]]].
  (* `repeat split` settles the closed equations among the conjuncts of `muse_ok`; what it leaves is named *)
  - repeat split. exact F0.
  - repeat split; [exact F1 | discriminate | ]. apply Forall_cons; [split; reflexivity | apply Forall_nil].
  - repeat split. exact F0.
Qed.
Example C12_every_use_example :
  apply_macros (fun _ _ => None) ex_defs9 (min ex_muses ++ [MSym ";"]) =
  XOk [MLit "640"; MSym "*"; MLP; MLP; MLit "3"; MRP; MSym "*"; MLP; MLit "3"; MRP; MRP; MSym "+"; MLit "640"; MSym ";"].
Proof. vm_compute. reflexivity. Qed.
Print Assumptions C12_expansion_terminates.
Print Assumptions C12_include_is_paste.
Print Assumptions C12_pragma_once_marks.
Print Assumptions C12_pragma_once_second_time.
Print Assumptions C12_defines_are_define_lines.
Print Assumptions C12_plain_text_unchanged.
Print Assumptions C12_object_macro_is_replaced.
Print Assumptions C12_function_macro_is_substituted.
Print Assumptions C12_define_takes_effect.
Print Assumptions C12_define_function_takes_effect.
Print Assumptions C12_undef_takes_effect.
Print Assumptions C12_paste_macro_pastes.
Print Assumptions C12_object_chain_is_replaced.
Print Assumptions C12_self_reference_stays.
Print Assumptions C12_argument_is_expanded_first.
Print Assumptions C12_mutual_reference.
Print Assumptions C12_replacement_invokes_function.
Print Assumptions C12_every_use_is_replaced.
