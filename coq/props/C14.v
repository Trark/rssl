(* C14 — layout trivia and source positions: the theorems of the property and their non-vacuity examples. *)
From Coq Require Import List NArith Bool String Ascii.
From RV Require Import Loc LocProofs Lexer LexerTrivia LexerTrivia2 LexerTrivia3 LexerTrivia7 LexerTrivia4 LexerTriviaNum LexerTriviaFloat LexerNumTail GenLexer.
Import ListNotations.
Local Open Scope N_scope.

(* ---- every file text a ++ b split at the start of a line, every inserted text of whole lines (k line feeds, the last
        byte a line feed), every later offset: the decoded line moves down by exactly k and the column is unchanged ---- *)
Theorem C14_inserting_lines_shifts_lines :
  forall (a ins b : list N) (j : nat),
    (a = [] \/ last a 0 = nl) -> (ins = [] \/ last ins 0 = nl) ->
    line_col (a ++ ins ++ b) (List.length a + (List.length ins + j)) =
    let '(l, c) := line_col (a ++ b) (List.length a + j) in (l + count_nl ins, c).
Proof. exact line_shift. Qed.

(* ---- every set of loaded files, every file i of it, every offset into it (the end-of-file slot included): the
        location handed out for that offset decodes to file i's name and to the line and column inside file i ---- *)
Theorem C14_location_names_its_file :
  forall (fs : list sfile) (i : nat) (f : sfile) (off : nat),
    nth_error fs i = Some f -> (off <= List.length (f_bytes f))%nat ->
    locate fs 0 (location_of fs i off) = Some (f_name f, fst (line_col (f_bytes f) off), snd (line_col (f_bytes f) off)).
Proof. exact location_names_its_file. Qed.

Theorem C14_file_ranges_disjoint :
  forall (fs : list sfile) (i j : nat) (fi fj : sfile),
    nth_error fs i = Some fi -> nth_error fs j = Some fj -> (i < j)%nat ->
    base_of fs i + slots fi <= base_of fs j.
Proof. exact file_ranges_disjoint. Qed.

(* ---- files loaded later (further includes, the scratch files of ##) never change what an earlier location decodes to ---- *)
Theorem C14_later_files_do_not_matter :
  forall (fs more : list sfile) (cur loc : N),
    cur <= loc -> loc < cur + total fs -> locate (fs ++ more) cur loc = locate fs cur loc.
Proof. exact later_files_do_not_matter. Qed.

(* ---- layout trivia at the lexer (partial).
   Full statement of the property's first half, for the lexer alone: inserting whitespace, comments or line splices
   between two tokens of a file leaves the sequence of tokens that are not whitespace unchanged, except directly after
   `<` or `>`.  The theorems of this file cover, for every table of keywords / symbols / suffixes (suffix tables made of
   letters where a numeric literal is involved): any run of blanks, block comments, line comments with their line feed and
   line splices (backslash, line feed) in front of the first token of a file, and behind an identifier, keyword, reserved
   word, operator symbol, string literal or numeric literal of any form that stands after a prefix of such tokens, of
   `<` / `>` and of trivia in any arrangement, the tokens touching or not; at one token boundary or at many at once.  The
   token in front of the inserted trivia may not begin with a slash (the text of a comment directly after the operator `/`
   is not a comment there: the two slashes open a line comment).
   Outside these theorems: a numeric literal directly followed by `.` or `#`; `<` / `>` directly in front of the token
   at the insertion point unless that token is a word; tokens and trivia of other kinds in front of the insertion
   point (a line end with a carriage return, for one: that they do not look ahead that far is not proved); and
   everything after the lexer (directive lines, macro invocations, the parser).  Those cases and layers are exercised by
   the metamorphic runs of the check. ---- *)

Theorem C14_token_ignores_a_following_blank_partial :
  forall keywords reserved_words symbols int_suffixes float_suffixes float_is_zero utf8_ok (a b : string) t w b',
    tok_at keywords reserved_words symbols int_suffixes float_suffixes float_is_zero utf8_ok false (a ++ b) = LOk t (slen a) ->
    solid t = true -> blank w ->
    tok_at keywords reserved_words symbols int_suffixes float_suffixes float_is_zero utf8_ok false (a ++ String w b') = LOk t (slen a).
Proof. exact solid_token_ignores_following_blank. Qed.

Theorem C14_blank_after_a_token_keeps_the_rest_partial :
  forall keywords reserved_words symbols int_suffixes float_suffixes float_is_zero utf8_ok (a b : string) last t ts w,
    tok_at keywords reserved_words symbols int_suffixes float_suffixes float_is_zero utf8_ok false (a ++ b) = LOk t (slen a) ->
    solid t = true -> blank w ->
    Lexes keywords reserved_words symbols int_suffixes float_suffixes float_is_zero utf8_ok (a ++ b) last (t :: ts) ->
    exists ts', Lexes keywords reserved_words symbols int_suffixes float_suffixes float_is_zero utf8_ok (a ++ String w b) last (t :: ts') /\
                strip ts' = strip ts.
Proof. exact blank_after_solid_token. Qed.

Theorem C14_blank_after_the_first_token_partial :
  forall keywords reserved_words symbols int_suffixes float_suffixes float_is_zero utf8_ok (a b : string) t w spans,
    tok_at keywords reserved_words symbols int_suffixes float_suffixes float_is_zero utf8_ok false (a ++ b) = LOk t (slen a) ->
    solid t = true -> blank w ->
    lex_file keywords reserved_words symbols int_suffixes float_suffixes float_is_zero utf8_ok (a ++ b) = SOk spans ->
    exists spans', lex_file keywords reserved_words symbols int_suffixes float_suffixes float_is_zero utf8_ok (a ++ String w b) = SOk spans' /\
                   strip (toks spans') = strip (toks spans).
Proof. exact blank_after_first_token. Qed.

(* non-vacuity with the generated tables of the lexer (in this and the later examples float_is_zero is constantly false
   and utf8_ok constantly true): `x+=1` and `x +=1`; the hypothesis fails where it must: `+` `=` *)
Example C14_trivia_example :
  let lex := lex_file keywords reserved_words symbols int_suffixes float_suffixes (fun _ => false) (fun _ => true) in
  let at_ := tok_at keywords reserved_words symbols int_suffixes float_suffixes (fun _ => false) (fun _ => true) false in
  at_ ("x" ++ "+=1")%string = LOk (TId "x") 1%nat /\ solid (TId "x") = true /\
  option_map strip (match lex "x+=1"%string with SOk l => Some (toks l) | _ => None end) =
  option_map strip (match lex "x +=1"%string with SOk l => Some (toks l) | _ => None end) /\
  at_ ("+" ++ "=1")%string <> LOk (TSym "Plus") 1%nat.
Proof. vm_compute. repeat split. discriminate. Qed.

(* any run of trivia pieces - blanks, block comments whose body does not hold the closing star-slash, line comments
   with their line feed, line splices - after such a token that does not begin with a slash *)
Theorem C14_trivia_after_a_token_keeps_the_rest_partial :
  forall keywords reserved_words symbols int_suffixes float_suffixes float_is_zero utf8_ok c a' (b : string) last t ts x,
    tok_at keywords reserved_words symbols int_suffixes float_suffixes float_is_zero utf8_ok false (String c a' ++ b) = LOk t (slen (String c a')) ->
    solid t = true -> Ascii.eqb c "/" = false -> Trivia x ->
    Lexes keywords reserved_words symbols int_suffixes float_suffixes float_is_zero utf8_ok (String c a' ++ b) last (t :: ts) ->
    exists ts', Lexes keywords reserved_words symbols int_suffixes float_suffixes float_is_zero utf8_ok (String c a' ++ x ++ b) last (t :: ts') /\
                strip ts' = strip ts.
Proof. exact trivia_after_solid_token. Qed.

Theorem C14_trivia_after_the_first_token_partial :
  forall keywords reserved_words symbols int_suffixes float_suffixes float_is_zero utf8_ok c a' (b : string) t x spans,
    tok_at keywords reserved_words symbols int_suffixes float_suffixes float_is_zero utf8_ok false (String c a' ++ b) = LOk t (slen (String c a')) ->
    solid t = true -> Ascii.eqb c "/" = false -> Trivia x ->
    lex_file keywords reserved_words symbols int_suffixes float_suffixes float_is_zero utf8_ok (String c a' ++ b) = SOk spans ->
    exists spans', lex_file keywords reserved_words symbols int_suffixes float_suffixes float_is_zero utf8_ok (String c a' ++ x ++ b) = SOk spans' /\
                   strip (toks spans') = strip (toks spans).
Proof.
  intros *. exact (trivia_after_token_behind_prefix2 "" c a' t b x spans (Pre2Nil _ _ _ _ _ _ _ c)).
Qed.

(* non-vacuity with the generated tables: a comment whose body begins with a slash, a line comment and a splice after `x`;
   and the excluded adjacency: a comment directly after the operator `/` is not a comment *)
Example C14_trivia_pieces_example :
  let lex := lex_file keywords reserved_words symbols int_suffixes float_suffixes (fun _ => false) (fun _ => true) in
  let nonws s := option_map strip (match lex s with SOk l => Some (toks l) | _ => None end) in
  Trivia ("/*" ++ "/ c " ++ "*/") /\ Trivia (("//" ++ " c" ++ String "010" "") ++ (String "\" (String "010" ""))) /\
  nonws "x+=1"%string = nonws ("x" ++ ("/*" ++ "/ c " ++ "*/") ++ "+=1")%string /\
  nonws "x+=1"%string = nonws ("x" ++ (("//" ++ " c" ++ String "010" "") ++ (String "\" (String "010" ""))) ++ "+=1")%string /\
  nonws "a/b"%string <> nonws ("a/" ++ ("/*" ++ " c " ++ "*/") ++ "b")%string.
Proof.
  split; [apply TrOne, PBlock; reflexivity|].
  split; [apply TrMore; [apply PLine; reflexivity|apply TrOne, PSplice]|].
  vm_compute. repeat split. discriminate.
Qed.

Theorem C14_trivia_at_the_start_partial :
  forall keywords reserved_words symbols int_suffixes float_suffixes float_is_zero utf8_ok x (s : string) spans,
    Trivia x ->
    lex_file keywords reserved_words symbols int_suffixes float_suffixes float_is_zero utf8_ok s = SOk spans ->
    exists spans', lex_file keywords reserved_words symbols int_suffixes float_suffixes float_is_zero utf8_ok (x ++ s) = SOk spans' /\
                   strip (toks spans') = strip (toks spans).
Proof. exact trivia_at_start. Qed.

(* any token boundary behind a prefix of such tokens that are separated by single blanks: the prefix `p` is a run of
   identifier / keyword / symbol / string tokens each followed by one blank (`Spaced`), the token in front of the
   insertion point is of that kind and does not begin with a slash, the rest of the file is arbitrary *)
Theorem C14_trivia_behind_a_spaced_prefix_partial :
  forall keywords reserved_words symbols int_suffixes float_suffixes float_is_zero utf8_ok p tp c a' (b : string) t x spans,
    Spaced keywords reserved_words symbols int_suffixes float_suffixes float_is_zero utf8_ok p tp ->
    tok_at keywords reserved_words symbols int_suffixes float_suffixes float_is_zero utf8_ok false (String c a' ++ b) = LOk t (slen (String c a')) ->
    solid t = true -> Ascii.eqb c "/" = false -> Trivia x ->
    lex_file keywords reserved_words symbols int_suffixes float_suffixes float_is_zero utf8_ok (p ++ String c a' ++ b) = SOk spans ->
    exists spans', lex_file keywords reserved_words symbols int_suffixes float_suffixes float_is_zero utf8_ok (p ++ String c a' ++ x ++ b) = SOk spans' /\
                   strip (toks spans') = strip (toks spans).
Proof.
  intros * Sp. exact (trivia_after_token_behind_prefix2 p c a' t b x spans (pre_pre2 c p (spaced_pre p tp Sp c))).
Qed.

(* non-vacuity with the generated tables: `return x += y;` - the prefix `return x += `, the token `y`, a comment and a line
   splice inserted in front of the `;` *)
Local Open Scope string_scope.
Example C14_spaced_prefix_example :
  let sp := Spaced keywords reserved_words symbols int_suffixes float_suffixes (fun _ => false) (fun _ => true) in
  let lex := lex_file keywords reserved_words symbols int_suffixes float_suffixes (fun _ => false) (fun _ => true) in
  let nonws s := option_map strip (match lex s with SOk l => Some (toks l) | _ => None end) in
  (exists tp, sp ("return" ++ String " " ("x" ++ String " " ("+=" ++ String " " ""))) tp) /\
  nonws "return x += y;"%string = nonws ("return x += y" ++ (("/*" ++ " c " ++ "*/") ++ (String "\" (String "010" ""))) ++ ";")%string.
Proof.
  cbv zeta. split.
  - eexists.
    (* per token: how it is read in front of its blank, that it is solid, that the blank is one *)
    apply SpCons; [vm_compute; reflexivity|reflexivity|left; reflexivity|].
    apply SpCons; [vm_compute; reflexivity|reflexivity|left; reflexivity|].
    apply SpCons; [vm_compute; reflexivity|reflexivity|left; reflexivity|]. apply SpNil.
  - vm_compute. reflexivity.
Qed.

(* any token boundary behind a prefix made of such tokens and of trivia pieces in any arrangement - the tokens may touch,
   as long as each is followed by a character that cannot extend it (`Pre`, checked against the first character `c` of the
   token in front of the insertion point); numeric literals and `<` / `>` may not occur in the prefix *)
Theorem C14_trivia_behind_a_token_prefix_partial :
  forall keywords reserved_words symbols int_suffixes float_suffixes float_is_zero utf8_ok p c a' (b : string) t x spans,
    Pre keywords reserved_words symbols int_suffixes float_suffixes float_is_zero utf8_ok c p ->
    tok_at keywords reserved_words symbols int_suffixes float_suffixes float_is_zero utf8_ok false (String c a' ++ b) = LOk t (slen (String c a')) ->
    solid t = true -> Ascii.eqb c "/" = false -> Trivia x ->
    lex_file keywords reserved_words symbols int_suffixes float_suffixes float_is_zero utf8_ok (p ++ String c a' ++ b) = SOk spans ->
    exists spans', lex_file keywords reserved_words symbols int_suffixes float_suffixes float_is_zero utf8_ok (p ++ String c a' ++ x ++ b) = SOk spans' /\
                   strip (toks spans') = strip (toks spans).
Proof.
  intros * Pp. exact (trivia_after_token_behind_prefix2 p c a' t b x spans (pre_pre2 c p Pp)).
Qed.

(* non-vacuity with the generated tables: `a/* c */=b+c;` - the prefix `a/* c */=b+` (tokens that touch, a comment between
   two of them), the token `c`, a line comment inserted in front of the `;` *)
Example C14_token_prefix_example :
  let pre := Pre keywords reserved_words symbols int_suffixes float_suffixes (fun _ => false) (fun _ => true) "c"%char in
  let lex := lex_file keywords reserved_words symbols int_suffixes float_suffixes (fun _ => false) (fun _ => true) in
  let nonws s := option_map strip (match lex s with SOk l => Some (toks l) | _ => None end) in
  pre ("a" ++ ("/*" ++ " c " ++ "*/") ++ "=" ++ "b" ++ "+" ++ "") /\
  nonws "a/* c */=b+c;" = nonws ("a/* c */=b+c" ++ ("//" ++ " d" ++ String "010" "") ++ ";").
Proof.
  cbv zeta. split.
  - apply pre_solid_closed; [vm_compute; discriminate|].
    apply PreTrivia; [apply PBlock; reflexivity|].
    apply pre_solid_closed; [vm_compute; discriminate|].
    apply pre_solid_closed; [vm_compute; discriminate|].
    apply pre_solid_closed; [vm_compute; discriminate|].
    apply PreNil.
  - vm_compute. reflexivity.
Qed.

(* ---- decimal integer literals: a run of digits (no leading zero unless it is `0` alone) in front of a character that
        can neither continue a number nor start a suffix is the LiteralInt of its value and of exactly its length,
        whatever follows that character (for every suffix table whose suffixes begin with a letter) ---- *)
Theorem C14_decimal_int_token :
  forall keywords reserved_words symbols int_suffixes float_suffixes float_is_zero utf8_ok c a' v w r,
    suffixes_alpha int_suffixes = true ->
    all is_digit (String c a') = true -> (Ascii.eqb c "0" = true -> a' = "") ->
    accum 10 dec_val (String c a') 0 = Some v ->
    ends_number w ->
    tok_at keywords reserved_words symbols int_suffixes float_suffixes float_is_zero utf8_ok false (String c a' ++ String w r) =
    LOk (TInt "LiteralInt" v) (slen (String c a')).
Proof. intros * Hs Ha Hz Hv. exact (decimal_int_token c a' v Hs Ha Hz Hv w r). Qed.

(* ---- prefixes that may hold decimal integer literals (`Pre2`): every prefix of `Pre` is one, and so is a decimal
        integer literal in front of such a prefix whose first character ends a number ---- *)
Theorem C14_pre_is_pre2 :
  forall keywords reserved_words symbols int_suffixes float_suffixes float_is_zero utf8_ok nxt p,
    Pre keywords reserved_words symbols int_suffixes float_suffixes float_is_zero utf8_ok nxt p ->
    Pre2 keywords reserved_words symbols int_suffixes float_suffixes float_is_zero utf8_ok nxt p.
Proof. exact pre_pre2. Qed.

Theorem C14_pre2_decimal_int :
  forall keywords reserved_words symbols int_suffixes float_suffixes float_is_zero utf8_ok nxt c a' v p,
    suffixes_alpha int_suffixes = true ->
    all is_digit (String c a') = true -> (Ascii.eqb c "0" = true -> a' = "") ->
    accum 10 dec_val (String c a') 0 = Some v ->
    ends_number (next_char nxt p) ->
    Pre2 keywords reserved_words symbols int_suffixes float_suffixes float_is_zero utf8_ok nxt p ->
    Pre2 keywords reserved_words symbols int_suffixes float_suffixes float_is_zero utf8_ok nxt (String c a' ++ p).
Proof. exact pre2_decimal_int. Qed.

(* ---- trivia in front of any token boundary behind such a prefix, the token in front of it being an identifier, keyword,
        operator or string, or a decimal integer literal: the tokens that are not whitespace stay as they were ---- *)
Theorem C14_trivia_behind_a_prefix_with_integers_partial :
  forall keywords reserved_words symbols int_suffixes float_suffixes float_is_zero utf8_ok p c a' t (b : string) x spans,
    Pre2 keywords reserved_words symbols int_suffixes float_suffixes float_is_zero utf8_ok c p ->
    tok_at keywords reserved_words symbols int_suffixes float_suffixes float_is_zero utf8_ok false (String c a' ++ b) = LOk t (slen (String c a')) ->
    solid t = true -> Ascii.eqb c "/" = false -> Trivia x ->
    lex_file keywords reserved_words symbols int_suffixes float_suffixes float_is_zero utf8_ok (p ++ String c a' ++ b) = SOk spans ->
    exists spans', lex_file keywords reserved_words symbols int_suffixes float_suffixes float_is_zero utf8_ok (p ++ String c a' ++ x ++ b) = SOk spans' /\
                   strip (toks spans') = strip (toks spans).
Proof. exact trivia_after_token_behind_prefix2. Qed.

Theorem C14_trivia_behind_a_decimal_int_partial :
  forall keywords reserved_words symbols int_suffixes float_suffixes float_is_zero utf8_ok p c a' v (b : string) x spans,
    suffixes_alpha int_suffixes = true ->
    Pre2 keywords reserved_words symbols int_suffixes float_suffixes float_is_zero utf8_ok c p ->
    all is_digit (String c a') = true -> (Ascii.eqb c "0" = true -> a' = "") ->
    accum 10 dec_val (String c a') 0 = Some v ->
    tok_at keywords reserved_words symbols int_suffixes float_suffixes float_is_zero utf8_ok false (String c a' ++ b) =
      LOk (TInt "LiteralInt" v) (slen (String c a')) ->
    Trivia x ->
    lex_file keywords reserved_words symbols int_suffixes float_suffixes float_is_zero utf8_ok (p ++ String c a' ++ b) = SOk spans ->
    exists spans', lex_file keywords reserved_words symbols int_suffixes float_suffixes float_is_zero utf8_ok (p ++ String c a' ++ x ++ b) = SOk spans' /\
                   strip (toks spans') = strip (toks spans).
Proof. exact trivia_after_decimal_int_behind_prefix2. Qed.

(* non-vacuity with the generated tables: the suffix table meets the hypothesis; `n=16+x;`: the prefix `n=16+` (an identifier, an
   operator, a decimal integer literal, an operator), the token `x`, a block comment in front of the `;`; and `n=16;` with
   the comment behind the 16 *)
Example C14_suffix_table_ok : suffixes_alpha int_suffixes = true.
Proof. vm_compute. reflexivity. Qed.
Example C14_integer_prefix_example :
  let pre2 := Pre2 keywords reserved_words symbols int_suffixes float_suffixes (fun _ => false) (fun _ => true) "x"%char in
  let lex := lex_file keywords reserved_words symbols int_suffixes float_suffixes (fun _ => false) (fun _ => true) in
  let nonws s := option_map strip (match lex s with SOk l => Some (toks l) | _ => None end) in
  pre2 ("n" ++ "=" ++ "16" ++ "+" ++ "") /\
  nonws "n=16+x;" = nonws ("n=16+x" ++ ("/*" ++ " c " ++ "*/") ++ ";") /\
  nonws "n=16;" = nonws ("n=16" ++ ("/*" ++ " c " ++ "*/") ++ ";").
Proof.
  cbv zeta. split; [|split; vm_compute; reflexivity].
  apply pre2_solid_closed; [vm_compute; discriminate|].
  apply pre2_solid_closed; [vm_compute; discriminate|].
  (* 16: digits only, no leading 0, its value, `+` ends it *)
  apply (pre2_decimal_int _ "1"%char "6" 16%N _ C14_suffix_table_ok); [reflexivity|discriminate|reflexivity|split; reflexivity|].
  apply pre2_solid_closed; [vm_compute; discriminate|].
  apply Pre2Nil.
Qed.

(* ---- plain floating-point literals `digits.digits` (no exponent, no suffix): in front of a character that can neither
        continue the literal nor start a suffix it is the LiteralFloat of exactly that text, whatever follows; it may
        stand in a `Pre2` prefix, and trivia behind it leaves the tokens that are not whitespace unchanged ---- *)
Theorem C14_plain_float_token :
  forall keywords reserved_words symbols int_suffixes float_suffixes float_is_zero utf8_ok c wh fr w r,
    fsuffixes_alpha float_suffixes = true ->
    all is_digit (String c wh) = true -> all is_digit fr = true ->
    ends_float w ->
    let text := String c wh ++ String "." fr in
    tok_at keywords reserved_words symbols int_suffixes float_suffixes float_is_zero utf8_ok false (text ++ String w r) =
    LOk (TFloat FNone text) (slen text).
Proof. intros * Hs Hw Hf. exact (plain_float_token c wh fr Hs Hw Hf w r). Qed.

Theorem C14_pre2_plain_float :
  forall keywords reserved_words symbols int_suffixes float_suffixes float_is_zero utf8_ok nxt c wh fr p,
    fsuffixes_alpha float_suffixes = true ->
    all is_digit (String c wh) = true -> all is_digit fr = true ->
    ends_float (next_char nxt p) ->
    Pre2 keywords reserved_words symbols int_suffixes float_suffixes float_is_zero utf8_ok nxt p ->
    Pre2 keywords reserved_words symbols int_suffixes float_suffixes float_is_zero utf8_ok nxt ((String c wh ++ String "." fr) ++ p).
Proof. exact pre2_plain_float. Qed.

Theorem C14_trivia_behind_a_plain_float_partial :
  forall keywords reserved_words symbols int_suffixes float_suffixes float_is_zero utf8_ok p c wh fr (b : string) x spans,
    fsuffixes_alpha float_suffixes = true ->
    Pre2 keywords reserved_words symbols int_suffixes float_suffixes float_is_zero utf8_ok c p ->
    all is_digit (String c wh) = true -> all is_digit fr = true ->
    let text := String c wh ++ String "." fr in
    tok_at keywords reserved_words symbols int_suffixes float_suffixes float_is_zero utf8_ok false (text ++ b) = LOk (TFloat FNone text) (slen text) ->
    Trivia x ->
    lex_file keywords reserved_words symbols int_suffixes float_suffixes float_is_zero utf8_ok (p ++ text ++ b) = SOk spans ->
    exists spans', lex_file keywords reserved_words symbols int_suffixes float_suffixes float_is_zero utf8_ok (p ++ text ++ x ++ b) = SOk spans' /\
                   strip (toks spans') = strip (toks spans).
Proof. exact trivia_after_plain_float_behind_prefix2. Qed.

Example C14_float_suffix_table_ok : fsuffixes_alpha float_suffixes = true.
Proof. vm_compute. reflexivity. Qed.
Example C14_plain_float_example :
  let lex := lex_file keywords reserved_words symbols int_suffixes float_suffixes (fun _ => false) (fun _ => true) in
  let nonws s := option_map strip (match lex s with SOk l => Some (toks l) | _ => None end) in
  tok_at keywords reserved_words symbols int_suffixes float_suffixes (fun _ => false) (fun _ => true) false ("0.5" ++ "*y;") =
    LOk (TFloat FNone "0.5") 3 /\
  nonws "x=0.5*y;" = nonws ("x=0.5" ++ ("//" ++ " half" ++ String "010" "") ++ "*y;").
Proof. cbv zeta. split; vm_compute; reflexivity. Qed.

(* ---- numeric literals of every form (decimal, hexadecimal, octal, with suffixes, exponents, #INF): a text that begins
        with a digit is read the same in front of any two characters that end it (`stopb`: no letter, digit or underscore,
        neither . nor #, and + or - only where the text does not end in the e of an exponent), whatever follows them - for every pair of suffix tables made of letters ---- *)
Theorem C14_numeric_token_ignores_what_follows :
  forall keywords reserved_words symbols int_suffixes float_suffixes float_is_zero utf8_ok c u' w1 r1 w2 r2,
    suffixes_alpha_all int_suffixes = true -> fsuffixes_alpha float_suffixes = true ->
    is_digit c = true -> stopb (String c u') w1 = true -> stopb (String c u') w2 = true ->
    tok_at keywords reserved_words symbols int_suffixes float_suffixes float_is_zero utf8_ok false (String c u' ++ String w1 r1) =
    tok_at keywords reserved_words symbols int_suffixes float_suffixes float_is_zero utf8_ok false (String c u' ++ String w2 r2).
Proof. exact numeric_token_ignores_tail. Qed.

Theorem C14_pre2_number :
  forall keywords reserved_words symbols int_suffixes float_suffixes float_is_zero utf8_ok nxt c a' t w0 r0 p,
    suffixes_alpha_all int_suffixes = true -> fsuffixes_alpha float_suffixes = true ->
    is_digit c = true -> stopb (String c a') w0 = true ->
    tok_at keywords reserved_words symbols int_suffixes float_suffixes float_is_zero utf8_ok false (String c a' ++ String w0 r0) = LOk t (slen (String c a')) ->
    stopb (String c a') (next_char nxt p) = true ->
    Pre2 keywords reserved_words symbols int_suffixes float_suffixes float_is_zero utf8_ok nxt p ->
    Pre2 keywords reserved_words symbols int_suffixes float_suffixes float_is_zero utf8_ok nxt (String c a' ++ p).
Proof. exact pre2_number. Qed.

(* ---- trivia between such a literal and the character that ends it, behind such a prefix, leaves the tokens that are not
        whitespace unchanged.  Not covered: a literal directly followed by `.` or `#` (`1.x`, the recorded swizzle
        finding, is of that kind) ---- *)
Theorem C14_trivia_behind_a_number_partial :
  forall keywords reserved_words symbols int_suffixes float_suffixes float_is_zero utf8_ok p c a' t w0 r0 x spans,
    suffixes_alpha_all int_suffixes = true -> fsuffixes_alpha float_suffixes = true ->
    Pre2 keywords reserved_words symbols int_suffixes float_suffixes float_is_zero utf8_ok c p -> is_digit c = true -> stopb (String c a') w0 = true ->
    tok_at keywords reserved_words symbols int_suffixes float_suffixes float_is_zero utf8_ok false (String c a' ++ String w0 r0) = LOk t (slen (String c a')) ->
    Trivia x ->
    lex_file keywords reserved_words symbols int_suffixes float_suffixes float_is_zero utf8_ok (p ++ String c a' ++ String w0 r0) = SOk spans ->
    exists spans', lex_file keywords reserved_words symbols int_suffixes float_suffixes float_is_zero utf8_ok (p ++ String c a' ++ x ++ String w0 r0) = SOk spans' /\
                   strip (toks spans') = strip (toks spans).
Proof. exact trivia_after_number_behind_prefix2. Qed.

(* non-vacuity with the generated tables: `x=1+0x1Fu*2.5e-3f;` - the prefix `x=1+0x1Fu*` with a decimal literal in front of a `+`
   and a suffixed hexadecimal literal in it, the literal `2.5e-3f` in front of the `;`, a line comment between them *)
Example C14_all_suffix_tables_ok : suffixes_alpha_all int_suffixes = true /\ fsuffixes_alpha float_suffixes = true.
Proof. split; vm_compute; reflexivity. Qed.
Example C14_number_example :
  let pre2 := Pre2 keywords reserved_words symbols int_suffixes float_suffixes (fun _ => false) (fun _ => true) "2"%char in
  let tok := tok_at keywords reserved_words symbols int_suffixes float_suffixes (fun _ => false) (fun _ => true) false in
  let lex := lex_file keywords reserved_words symbols int_suffixes float_suffixes (fun _ => false) (fun _ => true) in
  let nonws s := option_map strip (match lex s with SOk l => Some (toks l) | _ => None end) in
  pre2 ("x" ++ "=" ++ "1" ++ "+" ++ "0x1Fu" ++ "*" ++ "") /\
  tok ("2.5e-3f" ++ ";") = LOk (TFloat FFloat "2.5e-3") 7 /\
  nonws "x=1+0x1Fu*2.5e-3f;" = nonws ("x=1+0x1Fu*2.5e-3f" ++ ("//" ++ " c" ++ String "010" "") ++ ";").
Proof.
  cbv zeta. destruct C14_all_suffix_tables_ok as [Hi Hf]. split; [|split; vm_compute; reflexivity].
  apply pre2_solid_closed; [vm_compute; discriminate|].
  apply pre2_solid_closed; [vm_compute; discriminate|].
  (* a literal: its first character is a digit, w0 ends it, it is the token in front of w0, the next character ends it *)
  apply (pre2_number _ "1"%char "" (TInt "LiteralInt" 1) "+"%char "" _ Hi Hf); [reflexivity|reflexivity|vm_compute; reflexivity|reflexivity|].
  apply pre2_solid_closed; [vm_compute; discriminate|].
  apply (pre2_number _ "0"%char "x1Fu" (TInt "LiteralIntUnsigned32" 31) "*"%char "" _ Hi Hf); [reflexivity|reflexivity|vm_compute; reflexivity|reflexivity|].
  apply pre2_solid_closed; [vm_compute; discriminate|].
  apply Pre2Nil.
Qed.

(* ---- `<` and `>` inside a prefix: the lexer records on them whether a token follows directly; behind the bracket stands
        the rest of the prefix (a token read the same whatever follows, or a trivia piece), so the recorded flag does not
        depend on what comes after the prefix.  A bracket directly in front of the token at the insertion point is covered when that token is a
        word (C14_pre2_angle_before_a_word); trivia inserted directly behind a `<` / `>` is the exception the property names ---- *)
Theorem C14_pre2_langle :
  forall keywords reserved_words symbols int_suffixes float_suffixes float_is_zero utf8_ok nxt p,
    Pre2 keywords reserved_words symbols int_suffixes float_suffixes float_is_zero utf8_ok nxt p -> p <> "" ->
    Pre2 keywords reserved_words symbols int_suffixes float_suffixes float_is_zero utf8_ok nxt ("<" ++ p).
Proof. intros *. exact (pre2_angle nxt "<" p (or_introl eq_refl)). Qed.

Theorem C14_pre2_rangle :
  forall keywords reserved_words symbols int_suffixes float_suffixes float_is_zero utf8_ok nxt p,
    Pre2 keywords reserved_words symbols int_suffixes float_suffixes float_is_zero utf8_ok nxt p -> p <> "" ->
    Pre2 keywords reserved_words symbols int_suffixes float_suffixes float_is_zero utf8_ok nxt (">" ++ p).
Proof. intros *. exact (pre2_angle nxt ">" p (or_intror eq_refl)). Qed.

Theorem C14_pre2_angle_before_a_word :
  forall keywords reserved_words symbols int_suffixes float_suffixes float_is_zero utf8_ok nxt,
    is_alpha_ nxt = true ->
    Pre2 keywords reserved_words symbols int_suffixes float_suffixes float_is_zero utf8_ok nxt "<" /\
    Pre2 keywords reserved_words symbols int_suffixes float_suffixes float_is_zero utf8_ok nxt ">".
Proof.
  intros * Ha. split; [exact (pre2_angle_word nxt "<" (or_introl eq_refl) Ha) | exact (pre2_angle_word nxt ">" (or_intror eq_refl) Ha)].
Qed.

(* non-vacuity with the generated tables: `b=i<4;` and a block comment behind the `;` - the prefix `b=i<4` holds a `<` *)
Example C14_angle_example :
  let pre2 := Pre2 keywords reserved_words symbols int_suffixes float_suffixes (fun _ => false) (fun _ => true) ";"%char in
  let lex := lex_file keywords reserved_words symbols int_suffixes float_suffixes (fun _ => false) (fun _ => true) in
  let nonws s := option_map strip (match lex s with SOk l => Some (toks l) | _ => None end) in
  pre2 ("b" ++ "=" ++ "i" ++ "<" ++ "4" ++ "") /\
  nonws ("b=i<4;" ++ String "010" "") = nonws ("b=i<4;" ++ ("/*" ++ " c " ++ "*/") ++ String "010" "").
Proof.
  cbv zeta. destruct C14_all_suffix_tables_ok as [Hi Hf]. split; [|vm_compute; reflexivity].
  apply pre2_solid_closed; [vm_compute; discriminate|].
  apply pre2_solid_closed; [vm_compute; discriminate|].
  apply pre2_solid_closed; [vm_compute; discriminate|].
  (* `<`: the rest of the prefix, `4`, is not empty *)
  apply (pre2_angle _ "<" _ (or_introl eq_refl)); [|discriminate].
  (* 4 is a digit, `;` ends the literal, the token in front of `;`, `;` is also the next character *)
  apply (pre2_number _ "4"%char "" (TInt "LiteralInt" 4) ";"%char "" _ Hi Hf); [reflexivity|reflexivity|vm_compute; reflexivity|reflexivity|].
  apply Pre2Nil.
Qed.

(* ---- trivia at any number of token boundaries at once.  A text is described as a list of elements (`Good`): tokens, each
        read the same in front of every character of a set that holds the character actually following it, and trivia
        pieces.  Behind every token marked insertable any run of trivia pieces may be added (`Ins`) - at as many tokens
        as one likes - and the file lexes to the same tokens that are not whitespace, whatever follows the described
        text.  Words, operators and strings (insertable unless they begin with a slash), numeric literals of every form
        (insertable) and `<` / `>` in front of a word or a blank (not insertable: the exception the property names) can be
        elements (the C14_good_ theorems) ---- *)
Theorem C14_trivia_at_many_boundaries_partial :
  forall keywords reserved_words symbols int_suffixes float_suffixes float_is_zero utf8_ok nxt r0 es es' spans,
    Good keywords reserved_words symbols int_suffixes float_suffixes float_is_zero utf8_ok nxt es -> Ins es es' ->
    lex_file keywords reserved_words symbols int_suffixes float_suffixes float_is_zero utf8_ok (txt es ++ String nxt r0) = SOk spans ->
    exists spans', lex_file keywords reserved_words symbols int_suffixes float_suffixes float_is_zero utf8_ok (txt es' ++ String nxt r0) = SOk spans' /\
                   strip (toks spans') = strip (toks spans).
Proof. exact trivia_at_many_boundaries. Qed.

Theorem C14_good_solid :
  forall keywords reserved_words symbols int_suffixes float_suffixes float_is_zero utf8_ok nxt c a' t ins es b,
    tok_at keywords reserved_words symbols int_suffixes float_suffixes float_is_zero utf8_ok false (String c a' ++ b) = LOk t (slen (String c a')) ->
    solid t = true -> follows_tok c (next_char nxt (txt es)) -> (ins = true -> Ascii.eqb c "/" = false) ->
    Good keywords reserved_words symbols int_suffixes float_suffixes float_is_zero utf8_ok nxt es ->
    Good keywords reserved_words symbols int_suffixes float_suffixes float_is_zero utf8_ok nxt (ETok c a' t ins :: es).
Proof. exact good_solid. Qed.

Theorem C14_good_number :
  forall keywords reserved_words symbols int_suffixes float_suffixes float_is_zero utf8_ok nxt c a' t w0 r0 ins es,
    suffixes_alpha_all int_suffixes = true -> fsuffixes_alpha float_suffixes = true ->
    is_digit c = true -> stopb (String c a') w0 = true ->
    tok_at keywords reserved_words symbols int_suffixes float_suffixes float_is_zero utf8_ok false (String c a' ++ String w0 r0) = LOk t (slen (String c a')) ->
    stopb (String c a') (next_char nxt (txt es)) = true ->
    Good keywords reserved_words symbols int_suffixes float_suffixes float_is_zero utf8_ok nxt es ->
    Good keywords reserved_words symbols int_suffixes float_suffixes float_is_zero utf8_ok nxt (ETok c a' t ins :: es).
Proof. exact good_number. Qed.

Theorem C14_good_angle :
  forall keywords reserved_words symbols int_suffixes float_suffixes float_is_zero utf8_ok nxt es,
    Good keywords reserved_words symbols int_suffixes float_suffixes float_is_zero utf8_ok nxt es ->
    (is_alpha_ (next_char nxt (txt es)) = true ->
       Good keywords reserved_words symbols int_suffixes float_suffixes float_is_zero utf8_ok nxt (ETok "<" "" (TLAngle true) false :: es) /\
       Good keywords reserved_words symbols int_suffixes float_suffixes float_is_zero utf8_ok nxt (ETok ">" "" (TRAngle true) false :: es)) /\
    (blank (next_char nxt (txt es)) ->
       Good keywords reserved_words symbols int_suffixes float_suffixes float_is_zero utf8_ok nxt (ETok "<" "" (TLAngle false) false :: es) /\
       Good keywords reserved_words symbols int_suffixes float_suffixes float_is_zero utf8_ok nxt (ETok ">" "" (TRAngle false) false :: es)).
Proof.
  intros * G. split; intros H; split.
  - exact (good_angle_word nxt "<" es (or_introl eq_refl) H G).
  - exact (good_angle_word nxt ">" es (or_intror eq_refl) H G).
  - exact (good_angle_blank nxt "<" es (or_introl eq_refl) H G).
  - exact (good_angle_blank nxt ">" es (or_intror eq_refl) H G).
Qed.

(* non-vacuity with the generated tables: `if(i<n)x=x+0.5f;` described element by element, and trivia added behind eight of its
   twelve tokens at once *)
Definition ex_elems : list elem :=
  [ETok "i" "f" (TKeyword "If") true; ETok "(" "" (TSym "LeftParen") true; ETok "i" "" (TId "i") true;
   ETok "<" "" (TLAngle true) false; ETok "n" "" (TId "n") true; ETok ")" "" (TSym "RightParen") true;
   ETok "x" "" (TId "x") true; ETok "=" "" (TSym "Equals") true; ETok "x" "" (TId "x") true;
   ETok "+" "" (TSym "Plus") true; ETok "0" ".5f" (TFloat FFloat "0.5") true; ETok ";" "" (TSym "Semicolon") true].
Definition ex_elems' : list elem :=
  [ETok "i" "f" (TKeyword "If") true; ETriv " "; ETok "(" "" (TSym "LeftParen") true; ETriv ("/*" ++ "a" ++ "*/");
   ETok "i" "" (TId "i") true;
   ETok "<" "" (TLAngle true) false; ETok "n" "" (TId "n") true; ETriv " "; ETriv (String "009" "");
   ETok ")" "" (TSym "RightParen") true; ETriv (String "010" "");
   ETok "x" "" (TId "x") true; ETok "=" "" (TSym "Equals") true; ETriv ("//" ++ " b" ++ String "010" "");
   ETok "x" "" (TId "x") true;
   ETok "+" "" (TSym "Plus") true; ETriv (String "\" (String "010" "")); ETok "0" ".5f" (TFloat FFloat "0.5") true; ETriv ("/*" ++ "" ++ "*/"); ETriv " ";
   ETok ";" "" (TSym "Semicolon") true; ETriv " "].
Example C14_many_example_texts :
  txt ex_elems = "if(i<n)x=x+0.5f;" /\
  txt ex_elems' = "if (/*a*/i<n " ++ String "009" (")" ++ String "010" ("x=// b" ++ String "010" ("x+\" ++ String "010" "0.5f/**/ ; "))).
Proof. split; reflexivity. Qed.
Example C14_many_example_good :
  Good keywords reserved_words symbols int_suffixes float_suffixes (fun _ => false) (fun _ => true) "010"%char ex_elems.
Proof.
  unfold ex_elems.
  (* a word, operator or string: `solid_check` reads it in front of a blank and tests the character that follows it in
     the text; then: marked insertable only if it does not begin with a slash *)
  apply good_solid_closed; [vm_compute; reflexivity|reflexivity|].
  apply good_solid_closed; [vm_compute; reflexivity|reflexivity|].
  apply good_solid_closed; [vm_compute; reflexivity|reflexivity|].
  (* `<`: a word, `n`, follows *)
  apply (good_angle_word _ "<" _ (or_introl eq_refl)); [reflexivity|].
  apply good_solid_closed; [vm_compute; reflexivity|reflexivity|].
  apply good_solid_closed; [vm_compute; reflexivity|reflexivity|].
  apply good_solid_closed; [vm_compute; reflexivity|reflexivity|].
  apply good_solid_closed; [vm_compute; reflexivity|reflexivity|].
  apply good_solid_closed; [vm_compute; reflexivity|reflexivity|].
  apply good_solid_closed; [vm_compute; reflexivity|reflexivity|].
  (* 0.5f: 0 is a digit, a blank ends the literal, the token in front of a blank, `;` ends it as well *)
  apply (good_number _ _ _ _ " "%char "" _ _ (proj1 C14_all_suffix_tables_ok) (proj2 C14_all_suffix_tables_ok));
    [reflexivity|reflexivity|vm_compute; reflexivity|reflexivity|].
  apply good_solid_closed; [vm_compute; reflexivity|reflexivity|].
  apply GNil.
Qed.
(* trivia behind an insertable token, and none behind a token *)
Lemma ins_some c a' [t es es' xs] : Forall Piece xs -> Ins es es' ->
  Ins (ETok c a' t true :: es) (ETok c a' t true :: (map ETriv xs ++ es')%list).
Proof. intros F. exact (ITok c a' t true es es' xs F (or_introl eq_refl)). Qed.
Lemma ins_none c a' [t ins es es'] : Ins es es' -> Ins (ETok c a' t ins :: es) (ETok c a' t ins :: es').
Proof. exact (ITok c a' t ins es es' [] (Forall_nil Piece) (or_intror eq_refl)). Qed.

Example C14_many_example_ins : Ins ex_elems ex_elems'.
Proof.
  assert (Sp : Piece " ") by (apply PBlank; left; reflexivity).
  assert (Tab : Piece (String "009" "")) by (apply PBlank; right; left; reflexivity).
  assert (Nl : Piece (String "010" "")) by (apply PBlank; right; right; reflexivity).
  unfold ex_elems, ex_elems'.
  apply (ins_some "i" "f" (Forall_cons _ Sp (Forall_nil _))).
  apply (ins_some "(" "" (Forall_cons _ (PBlock "a" eq_refl) (Forall_nil _))).
  apply (ins_none "i" "").
  apply (ins_none "<" "").
  apply (ins_some "n" "" (Forall_cons _ Sp (Forall_cons _ Tab (Forall_nil _)))).
  apply (ins_some ")" "" (Forall_cons _ Nl (Forall_nil _))).
  apply (ins_none "x" "").
  apply (ins_some "=" "" (Forall_cons _ (PLine " b" eq_refl) (Forall_nil _))).
  apply (ins_none "x" "").
  apply (ins_some "+" "" (Forall_cons _ PSplice (Forall_nil _))).
  apply (ins_some "0" ".5f" (Forall_cons _ (PBlock "" eq_refl) (Forall_cons _ Sp (Forall_nil _)))).
  apply (ins_some ";" "" (Forall_cons _ Sp (Forall_nil _))).
  apply INil.
Qed.
Local Close Scope string_scope.

Example C14_example :
  let a := [105; 110; 116; 10] in           (* "int\n" *)
  let ins := [47; 47; 10; 10] in            (* "//\n\n" : two lines *)
  let b := [32; 32; 120; 59; 10] in         (* "  x;\n" *)
  line_col (a ++ b) 6 = (2, 3) /\ line_col (a ++ ins ++ b) 10 = (4, 3).
Proof. vm_compute. split; reflexivity. Qed.

Example C14_example_files :
  let fs := [{| f_name := "main.rssl"; f_bytes := [97; 10; 98] |}; {| f_name := "b.h"; f_bytes := [10; 10; 120] |}] in
  locate fs 0 (location_of fs 1 2) = Some ("b.h"%string, 3, 1) /\ locate fs 0 (location_of fs 0 3) = Some ("main.rssl"%string, 2, 2).
Proof. vm_compute. split; reflexivity. Qed.

Print Assumptions C14_inserting_lines_shifts_lines.
Print Assumptions C14_location_names_its_file.
Print Assumptions C14_file_ranges_disjoint.
Print Assumptions C14_later_files_do_not_matter.
Print Assumptions C14_token_ignores_a_following_blank_partial.
Print Assumptions C14_blank_after_a_token_keeps_the_rest_partial.
Print Assumptions C14_blank_after_the_first_token_partial.
Print Assumptions C14_trivia_after_a_token_keeps_the_rest_partial.
Print Assumptions C14_trivia_after_the_first_token_partial.
Print Assumptions C14_trivia_at_the_start_partial.
Print Assumptions C14_trivia_behind_a_spaced_prefix_partial.
Print Assumptions C14_trivia_behind_a_token_prefix_partial.
Print Assumptions C14_decimal_int_token.
Print Assumptions C14_pre_is_pre2.
Print Assumptions C14_pre2_decimal_int.
Print Assumptions C14_trivia_behind_a_prefix_with_integers_partial.
Print Assumptions C14_trivia_behind_a_decimal_int_partial.
Print Assumptions C14_plain_float_token.
Print Assumptions C14_pre2_plain_float.
Print Assumptions C14_trivia_behind_a_plain_float_partial.
Print Assumptions C14_numeric_token_ignores_what_follows.
Print Assumptions C14_pre2_number.
Print Assumptions C14_trivia_behind_a_number_partial.
Print Assumptions C14_pre2_langle.
Print Assumptions C14_pre2_rangle.
Print Assumptions C14_pre2_angle_before_a_word.
Print Assumptions C14_trivia_at_many_boundaries_partial.
Print Assumptions C14_good_solid.
Print Assumptions C14_good_number.
Print Assumptions C14_good_angle.
