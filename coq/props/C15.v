(* C15 — renaming is harmless and emitted names are hygienic: the name generator.  The theorems of the property,
   their table obligations and non-vacuity examples. *)
From Coq Require Import List NArith Bool String Ascii.
From RV Require Import Wire NameGen NameGenProofs GenNames Scopes ScopesProofs TargetWords ListFacts NameGenEquiv.
From Coq Require Import Permutation.
Import ListNotations.
Local Open Scope string_scope.

(* table obligation: every reserved entry is a well formed identifier ("SamplerState," would never match anything) *)
Definition ident_start (c : ascii) : bool :=
  let n := N_of_ascii c in ((65 <=? n) && (n <=? 90) || (97 <=? n) && (n <=? 122) || (n =? 95))%N.
Definition ident_char (c : ascii) : bool := ident_start c || ((48 <=? N_of_ascii c) && (N_of_ascii c <=? 57))%N.
Definition is_ident (s : string) : bool :=
  match s with String c r => ident_start c && forallb ident_char (list_ascii_of_string r) | EmptyString => false end.

Theorem C15_reserved_lists_well_formed :
  forallb is_ident hlsl_reserved = true /\ forallb is_ident msl_reserved = true.
Proof. split; vm_compute; reflexivity. Qed.

(* table obligation: every keyword or built-in name of a target known here (the reviewed lists of
   model/TargetWords.v, not taken from /repo) is in that exporter's reserved list *)
Theorem C15_target_words_are_reserved :
  forallb (listed hlsl_reserved) hlsl_target_words = true /\ forallb (listed msl_reserved) msl_target_words = true.
Proof. split; vm_compute; reflexivity. Qed.

Theorem C15_target_words_reserved_each :
  (forall w, In w hlsl_target_words -> In w hlsl_reserved) /\ (forall w, In w msl_target_words -> In w msl_reserved).
Proof.
  exact (conj (forallb_existsb_incl String.eqb String.eqb_eq _ _ (proj1 C15_target_words_are_reserved))
              (forallb_existsb_incl String.eqb String.eqb_eq _ _ (proj2 C15_target_words_are_reserved))).
Qed.

(* the generator always returns a result: the suffix search needs at most |used|+1 probes *)
Theorem C15_build_total : forall reserved scopes locals, build reserved scopes locals <> None.
Proof. exact build_total. Qed.

(* within a scope (its names the keys of a map, hence distinct): pairwise distinct names, none reserved, unique
   non-reserved names kept verbatim, every symbol named *)
Theorem C15_scope_hygiene : forall reserved es K G,
  NoDup (map e_name es) -> assign_scope reserved es = Some (K, G) ->
  NoDup (map snd (K ++ G)) /\
  (forall n, In n (map snd (K ++ G)) -> ~ In n reserved) /\
  (forall e s, In e es -> e_syms e = [s] -> ~ In (e_name e) reserved -> In (s, e_name e) K) /\
  (forall e s, In e es -> In s (e_syms e) -> In s (map fst (K ++ G))).
Proof. exact assign_scope_spec. Qed.

(* no local receives a name of `used`: `build` passes the reserved names, the generated global names and the names of
   the global variables *)
Theorem C15_locals_avoid_reserved_and_generated : forall locals all used res,
  assign_locals locals all used [] = Some res ->
  forall id n, In (id, n) res -> ~ In n used.
Proof.
  intros locals all used res H id n Hin.
  destruct (assign_locals_spec locals all used []) as (res' & E & S). rewrite E in H. inversion H; subst res'.
  destruct (S id n Hin) as [[]|Hn]. exact Hn.
Qed.

(* every use refers to the entity it referred to in the source: the path written for the existing symbol `leaf` of
   namespace t (`emit`: namespaces from the root, name, and a leading `::` where a nearer declaration or a local /
   member / method has the path's first name) is looked up as that symbol, from every namespace u and under every
   stack of local frames whose names all satisfy `inner` *)
Theorem C15_emitted_path_names_its_symbol :
  forall (is_ns : list string -> bool) (has : list string -> string -> bool) (inner : string -> bool)
         (live : list string -> bool),
    (* every namespace from which namespaces lead to a declaration is written out *)
    (forall n s r t' leaf', walk is_ns (n :: s) r = Some t' -> has t' leaf' = true -> live (n :: s) = true) ->
    forall (frames : list (string -> bool)) (u t : list string) (leaf : string),
    ns_ok is_ns t = true -> has t leaf = true ->
    Forall (fun f : string -> bool => forall n, f n = true -> inner n = true) frames ->
    resolve is_ns has frames u (emit is_ns has inner live u t leaf) = Some (Declared t).
Proof. exact emitted_path_resolves. Qed.

(* non-vacuity: root f used from A::B, where A declares its own f, needs the anchor; without it the path is looked
   up as A::f (the seeded change: `is_hidden_from_root` looking at the innermost namespace only) *)
Example C15_path_example :
  let is_ns := fun p : list string => match p with ["A"] | ["B"; "A"] => true | _ => false end in
  let has := fun (p : list string) (n : string) => match p with [] | ["A"] => String.eqb n "f" | _ => false end in
  let inner := fun _ : string => false in
  p_abs (emit is_ns has inner is_ns ["B"; "A"] [] "f") = true /\
  resolve is_ns has [] ["B"; "A"] (emit is_ns has inner is_ns ["B"; "A"] [] "f") = Some (Declared []) /\
  resolve is_ns has [] ["B"; "A"] (emit_relative [] "f") = Some (Declared ["A"]) /\
  (* the empty namespace A::B::A is not written out: it does not force the anchor on A::f *)
  (let is_ns2 := fun p : list string => match p with ["A"] | ["B"; "A"] | ["A"; "B"; "A"] => true | _ => false end in
   let live2 := fun p : list string => match p with ["A"] => true | _ => false end in
   p_abs (emit is_ns2 has inner live2 ["B"; "A"] ["A"] "f") = false /\
   resolve is_ns2 has [] ["B"; "A"] (emit is_ns2 has inner live2 ["B"; "A"] ["A"] "f") = Some (Declared ["A"])).
Proof. vm_compute. repeat split. Qed.

(* non-vacuity: overloads f,f next to a user symbol f_0, and a reserved name *)
Example C15_example :
  assign_scope ["float4"; "abs"]
    [mkEntry "f" [(3, 0); (3, 1)]%N; mkEntry "f_0" [(3, 2)%N]; mkEntry "abs" [(2, 0)%N]; mkEntry "g" [(2, 1)%N]] =
  Some ([((3, 2)%N, "f_0"); ((2, 1)%N, "g")], [((2, 0)%N, "abs_0"); ((3, 0)%N, "f_1"); ((3, 1)%N, "f_2")]).
Proof. vm_compute. reflexivity. Qed.

(* renaming (first sentence of the property): for a scope whose names are fresh - distinct, none of the form m_k for
   a name m of the scope, no m_k reserved - renamed onto names fresh again and reserved exactly when the original was:
   a symbol that kept its name n keeps f n, and the i-th symbol of any other name n, which got n_i, gets (f n)_i *)
Theorem C15_renaming_renames_the_result : forall reserved f es,
  Fresh reserved es -> Fresh reserved (ren f es) -> keeps_reserved reserved f es ->
  exists G G',
    assign_scope reserved es = Some (kept_assignments reserved es, G) /\
    assign_scope reserved (ren f es) = Some (map (fun p => (fst p, f (snd p))) (kept_assignments reserved es), G') /\
    Permutation G (closed_gen reserved es) /\ Permutation G' (ren_closed_gen reserved f es).
Proof. exact rename_equivariant. Qed.

(* a test for freshness: distinct names, and none of them and no reserved word ends in an underscore and digits *)
Theorem C15_fresh_when_plain : forall reserved es,
  NoDup (names es) -> plain_names (names es) = true -> plain_names reserved = true -> Fresh reserved es.
Proof. exact fresh_intro. Qed.

(* table obligation: no reserved word of either exporter has the shape of a generated name *)
Theorem C15_reserved_words_are_plain : plain_names hlsl_reserved = true /\ plain_names msl_reserved = true.
Proof. split; vm_compute; reflexivity. Qed.

(* non-vacuity with the real HLSL table: overloads f, f; free g; reserved abs; renamed to foo, bar, min *)
Example C15_renaming_example :
  let es := [mkEntry "f" [(1, 0); (1, 1)]%N; mkEntry "g" [(1, 2)%N]; mkEntry "abs" [(1, 3)%N]] in
  let f := fun n => if String.eqb n "f" then "foo" else if String.eqb n "g" then "bar" else "min" in
  Fresh hlsl_reserved es /\ Fresh hlsl_reserved (ren f es) /\ keeps_reserved hlsl_reserved f es /\
  assign_scope hlsl_reserved es = Some ([((1, 2)%N, "g")], [((1, 3)%N, "abs_0"); ((1, 0)%N, "f_0"); ((1, 1)%N, "f_1")]) /\
  assign_scope hlsl_reserved (ren f es) = Some ([((1, 2)%N, "bar")], [((1, 0)%N, "foo_0"); ((1, 1)%N, "foo_1"); ((1, 3)%N, "min_0")]).
Proof.
  cbv zeta. split; [|split; [|split; [|split]]].
  - apply fresh_intro; [repeat constructor; cbn; intuition discriminate|vm_compute; reflexivity|exact (proj1 C15_reserved_words_are_plain)].
  - apply fresh_intro; [repeat constructor; cbn; intuition discriminate|vm_compute; reflexivity|exact (proj1 C15_reserved_words_are_plain)].
  - intros n Hn. cbn in Hn. destruct Hn as [<-|[<-|[<-|[]]]]; vm_compute; reflexivity.
  - vm_compute. reflexivity.
  - vm_compute. reflexivity.
Qed.

(* the same for the second pass: for locals with no name of the form m_k and no n_k taken, and a renaming injective on
   their names, fresh again, onto names taken exactly when the original was: a local that kept its name n keeps f n,
   and the j-th renamed local called n, which got n_j, gets (f n)_j *)
Theorem C15_renaming_renames_the_locals : forall f locals used0 used0',
  LocalsFresh locals used0 -> LocalsFresh (ren_locals f locals) used0' ->
  (forall a b, In a (map snd locals) -> In b (map snd locals) -> f a = f b -> a = b) ->
  (forall n, In n (map snd locals) -> in_str (f n) used0' = in_str n used0) ->
  assign_locals locals (map snd locals) used0 [] = Some (closed_locals (fun x => x) used0 [] locals) /\
  assign_locals (ren_locals f locals) (map snd (ren_locals f locals)) used0' [] = Some (closed_locals f used0 [] locals).
Proof.
  intros f locals used0 used0' F1 F2 Hinj Hmem. split; [apply assign_locals_fresh; exact F1|].
  rewrite (assign_locals_fresh _ _ F2).
  rewrite <- (closed_locals_ren f used0 used0' (map snd locals) Hinj Hmem locals [] (fun x (H : In x []) => match H with end) (incl_refl _)).
  reflexivity.
Qed.

Example C15_renaming_locals_example :
  let locals := [(0, "a"); (1, "v"); (2, "a"); (3, "w")]%N in
  let f := fun n => if String.eqb n "a" then "p" else if String.eqb n "v" then "q" else "r" in
  assign_locals locals (map snd locals) ["a"; "w"; "abs"] [] = Some [(0, "a_0"); (1, "v"); (2, "a_1"); (3, "w_0")]%N /\
  assign_locals (ren_locals f locals) (map snd (ren_locals f locals)) ["p"; "r"; "abs"] [] = Some [(0, "p_0"); (1, "q"); (2, "p_1"); (3, "r_0")]%N /\
  closed_locals f ["a"; "w"; "abs"] [] locals = [(0, "p_0"); (1, "q"); (2, "p_1"); (3, "r_0")]%N.
Proof. vm_compute. repeat split. Qed.

Print Assumptions C15_reserved_lists_well_formed.
Print Assumptions C15_target_words_are_reserved.
Print Assumptions C15_target_words_reserved_each.
Print Assumptions C15_build_total.
Print Assumptions C15_scope_hygiene.
Print Assumptions C15_locals_avoid_reserved_and_generated.
Print Assumptions C15_emitted_path_names_its_symbol.
Print Assumptions C15_renaming_renames_the_result.
Print Assumptions C15_fresh_when_plain.
Print Assumptions C15_reserved_words_are_plain.
Print Assumptions C15_renaming_renames_the_locals.
